(** Recursion points of different instantiations get different components (C09): the key of
    the component a [rec] expression creates carries the identifier of the scope on top of the
    evaluation stack, every function application evaluates its body under a scope whose
    identifier is larger than every identifier issued before, and nothing evaluated inside the
    body ever sees an older scope on top. Hence the recursion keys created while the body of an
    application is evaluated are larger than every scope identifier in use and every recursion
    key present when the body starts: the [rec] expressions of two applications of one function
    never share a key, and neither do those of an application and of its caller. *)
From Oal Require Import Eval ClosureProofs.
From Coq Require Import Lia.
Local Open Scope N_scope.

Definition rkeys (s : st) : list rkey := map fst (refs s).

(** every scope identifier on the stack and in a recursion key has been issued: it is at most [seq] *)
Definition bounded (s : st) : Prop :=
  (forall id sc, In (id, sc) (scopes s) -> id <= seq s) /\
  (forall m i k, In (KRec m i k) (rkeys s) -> k <= seq s).

(** what an evaluation may do to the state: the stack is restored, identifiers are only issued,
    keys are only added, a new recursion key carries an identifier between the one on top of
    the stack at the start and the last one issued, and keys that were distinct stay distinct *)
Definition step_ok (s s' : st) : Prop :=
  scopes s' = scopes s /\ seq s <= seq s' /\
  (forall k, In k (rkeys s) -> In k (rkeys s')) /\
  (forall m i k, In (KRec m i k) (rkeys s') -> In (KRec m i k) (rkeys s) \/ (top_scope_id s <= k /\ k <= seq s')) /\
  (NoDup (rkeys s) -> NoDup (rkeys s')).

Lemma step_refl s : step_ok s s.
Proof. repeat split; try lia; auto. Qed.

Lemma top_eq s s' : scopes s' = scopes s -> top_scope_id s' = top_scope_id s.
Proof. unfold top_scope_id. intros ->. reflexivity. Qed.

Lemma step_trans s s1 s2 : step_ok s s1 -> step_ok s1 s2 -> step_ok s s2.
Proof.
  intros (Hs & Hq & Hk & Hn & Hd) (Hs' & Hq' & Hk' & Hn' & Hd'). repeat split.
  - congruence.
  - lia.
  - auto.
  - intros m i k H. destruct (Hn' m i k H) as [H1|[H1 H2]].
    + destruct (Hn m i k H1) as [H0|[H0 H0']]; [left; exact H0|right; lia].
    + right. rewrite (top_eq s s1 Hs) in H1. lia.
  - auto.
Qed.

Lemma top_bounded s : bounded s -> top_scope_id s <= seq s.
Proof.
  intros [Hb _]. unfold top_scope_id. destruct (scopes s) as [|[id sc] ss] eqn:E; [lia|]. apply (Hb id sc). left. reflexivity.
Qed.

Lemma step_bounded s s' : bounded s -> step_ok s s' -> bounded s'.
Proof.
  intros [Hb Hr] (Hs & Hq & Hk & Hn & _). split.
  - intros id sc H. rewrite Hs in H. specialize (Hb id sc H). lia.
  - intros m i k H. destruct (Hn m i k H) as [H0|[_ H0]]; [specialize (Hr m i k H0); lia|exact H0].
Qed.

Lemma set_refs_step s k v (Hk : forall m i sc, k = KRec m i sc -> top_scope_id s <= sc /\ sc <= seq s) :
  step_ok s (set_refs s (rinsert k v (refs s))).
Proof.
  unfold step_ok, rkeys, set_refs. cbn [scopes seq refs]. repeat split; try lia.
  - intros x H. apply rinsert_dom. right. exact H.
  - intros m i sc H. apply rinsert_dom in H as [H|H]; [|left; exact H]. right. exact (Hk m i sc (eq_sym H)).
  - apply (im_insert_nodup rkey_eqb_iff).
Qed.

Lemma step_memo s k v : (forall m i c, k <> KRec m i c) -> step_ok s (set_refs s (rinsert k v (refs s))).
Proof. intros Hk. apply set_refs_step. intros m i sc E. destruct (Hk m i sc E). Qed.

Lemma step_rec s s' m i v : bounded s -> step_ok s s' ->
  step_ok s' (set_refs s' (rinsert (KRec m i (top_scope_id s)) v (refs s'))).
Proof.
  intros Hb (Hs & Hq & _). apply set_refs_step. intros m0 i0 sc0 [= _ _ <-].
  rewrite (top_eq s s' Hs). pose proof (top_bounded s Hb). lia.
Qed.

Lemma top_push s sc : top_scope_id (push_scope s sc) = seq s + 1.
Proof. reflexivity. Qed.

(** the state a body starts from: a fresh scope on the caller's stack, or on none of it when [lexical] *)
Lemma fresh_bounded s sc ss : bounded s -> incl ss (scopes s) -> bounded (mk_st (refs s) ((seq s + 1, sc) :: ss) (seq s + 1)).
Proof.
  intros [Hb Hr] Hss. split; cbn [scopes seq refs rkeys].
  - intros id sc' [E|H]; [injection E as <- _; lia|specialize (Hb id sc' (Hss _ H)); lia].
  - intros m i k H. specialize (Hr m i k H). lia.
Qed.

(** the body of an application runs from a state [sp] whose top scope is new; afterwards the
    stack of the caller [s] is put back: the keys added in between lie above the top of [s] *)
Lemma body_step s sp s' sf : bounded s -> seq sp = seq s + 1 -> top_scope_id sp = seq s + 1 -> refs sp = refs s ->
  step_ok sp s' -> scopes sf = scopes s -> seq sf = seq s' -> refs sf = refs s' -> step_ok s sf.
Proof.
  intros Hb Hqp Htp Hrp (_ & Hq & Hk & Hn & Hd) Hsc Hsq Hrf.
  unfold step_ok, rkeys in *. rewrite Hsc, Hsq, Hrf. rewrite Hrp in Hk, Hn, Hd. repeat split; try lia; try assumption.
  intros m i k Hin. destruct (Hn m i k Hin) as [H0|[H0 H0']]; [left; exact H0|right].
  pose proof (top_bounded s Hb). lia.
Qed.

Lemma step_call s sc : bounded s ->
  bounded (push_scope s sc) /\ forall s', step_ok (push_scope s sc) s' -> step_ok s (pop_scope s').
Proof.
  intros Hb. split; [exact (fresh_bounded s sc _ Hb (incl_refl _))|]. intros s' H.
  apply (body_step s (push_scope s sc) s'); try reflexivity; try assumption.
  destruct H as [Hs _]. unfold pop_scope. cbn [scopes]. rewrite Hs. reflexivity.
Qed.

Lemma step_lexical s sc : bounded s ->
  bounded (mk_st (refs s) [(seq s + 1, sc)] (seq s + 1)) /\
  forall s', step_ok (mk_st (refs s) [(seq s + 1, sc)] (seq s + 1)) s' -> step_ok s (mk_st (refs s') (scopes s) (seq s')).
Proof.
  intros Hb. split; [exact (fresh_bounded s sc [] Hb (incl_nil_l _))|]. intros s' H.
  apply (body_step s (mk_st (refs s) [(seq s + 1, sc)] (seq s + 1)) s'); try reflexivity; assumption.
Qed.

Section Main.
  Variable lx : bool.
  Variable P : prog.

  Lemma eval_post n s e a : bounded s -> post step_ok s (eval lx P n s e a).
  Proof.
    apply (eval_rel bounded step_ok step_refl step_trans step_bounded step_memo step_call step_lexical step_rec).
  Qed.

  Theorem eval_step_ok : forall n s e a s' v, bounded s -> eval lx P n s e a = Ok (s', v) -> step_ok s s'.
  Proof. intros n s e a s' v Hb H. pose proof (eval_post n s e a Hb) as G. rewrite H in G. exact G. Qed.
End Main.

Lemma bounded_st0 : bounded st0.
Proof. split; intros; contradiction. Qed.

(** the body of an application, evaluated under its fresh scope: every recursion key it adds is
    larger than every scope identifier and every recursion key that existed when it started *)
Theorem body_keys_fresh lx P n s2 sc body a s3 r :
  bounded s2 -> eval lx P n (push_scope s2 sc) body a = Ok (s3, r) ->
  forall m i k, In (KRec m i k) (rkeys s3) -> ~ In (KRec m i k) (rkeys s2) ->
  seq s2 < k /\
  (forall id sc', In (id, sc') (scopes s2) -> id < k) /\
  (forall m' i' k', In (KRec m' i' k') (rkeys s2) -> k' < k).
Proof.
  intros Hb H m i k Hin Hnew.
  destruct (eval_step_ok lx P n (push_scope s2 sc) _ _ _ _ (fresh_bounded s2 sc _ Hb (incl_refl _)) H) as (_ & _ & _ & Hn & _).
  destruct (Hn m i k Hin) as [H0|[H0 _]]; [contradiction|]. rewrite top_push in H0.
  destruct Hb as [Hb Hr]. split; [lia|]. split.
  - intros id sc' Hi. specialize (Hb id sc' Hi). lia.
  - intros m' i' k' Hi. specialize (Hr m' i' k' Hi). lia.
Qed.

Theorem body_keys_fresh_lexical lx P n s2 sc body a s3 r :
  bounded s2 -> eval lx P n (mk_st (refs s2) [(seq s2 + 1, sc)] (seq s2 + 1)) body a = Ok (s3, r) ->
  forall m i k, In (KRec m i k) (rkeys s3) -> ~ In (KRec m i k) (rkeys s2) ->
  seq s2 < k /\ (forall m' i' k', In (KRec m' i' k') (rkeys s2) -> k' < k).
Proof.
  intros Hb H m i k Hin Hnew.
  destruct (eval_step_ok lx P n _ _ _ _ _ (fresh_bounded s2 sc [] Hb (incl_nil_l _)) H) as (_ & _ & _ & Hn & _). destruct Hb as [_ Hr].
  destruct (Hn m i k Hin) as [H0|[H0 _]]; [contradiction|]. unfold top_scope_id in H0. cbn [scopes] in H0.
  split; [lia|]. intros m' i' k' Hi. specialize (Hr m' i' k' Hi). lia.
Qed.

Lemma refs_table_nodup r : forall t, refs_table r = Ok t -> NoDup (map fst r) -> NoDup (map fst t).
Proof.
  induction r as [|[k [v|]] r IH]; intros t H Hn; cbn [refs_table] in H; inversion Hn as [|? ? Hnk Hnr]; subst.
  - injection H as <-. constructor.
  - apply bind_Ok in H as (sc & _ & H). apply bind_Ok in H as (t' & Ht' & [= <-]).
    constructor; [|exact (IH t' Ht' Hnr)]. intros Hin. apply Hnk.
    apply in_map_iff in Hin as ([k' sc'] & Hk & Hin). cbn [fst] in Hk. subst k'.
    destruct (refs_table_entries r t' Ht' k sc' Hin) as (v' & a' & Hr & _).
    exact (in_map fst _ _ Hr).
  - exact (IH t H Hnr).
Qed.

(** a component is emitted once: the keys of the reference table of a program are pairwise distinct *)
Theorem program_components_distinct lx P n rs rels table :
  eval_program lx P n rs = Ok (rels, table) -> NoDup (map fst table).
Proof.
  intros H.
  destruct (eval_program_rel bounded step_ok step_refl step_trans step_bounded step_memo step_call step_lexical step_rec
              lx P n rs rels table bounded_st0 H) as (s1 & (_ & _ & _ & _ & Hd) & Ht).
  apply (refs_table_nodup (refs s1) table Ht), Hd. constructor.
Qed.

(** non-vacuity: [let f x = rec r { 'v x, 'n [r] }; res /a on get -> <{ 'p (f num), 'q (f str) }>;]
    two applications of one function: two components for the one rec node, with different scope identifiers *)
Example ex_inst_P : prog :=
  [[ mk_decl None false [] [7] (ERec 0 9 8 (EObj [EProp 20 None (ETerm [] (EBind 7)); EProp 21 None (EArr (ETerm [] (EBind 8)))])) ]].
Example ex_inst_rs : list expr :=
  [ERel (ETerm [] (EUri [inl 30] None))
        [EXfer [0] None (ECont (Some (EObj [EProp 22 None (EApp (EDecl 0 0) [ETerm [] (EPrim 2)]);
                                            EProp 23 None (EApp (EDecl 0 0) [ETerm [] (EPrim 3)])])) []) None]].
Example ex_two_instantiations :
  exists rels s1 s2, eval_program false ex_inst_P 50 ex_inst_rs = Ok (rels, [(KRec 0 9 1, s1); (KRec 0 9 3, s2)]) /\ s1 <> s2.
Proof. eexists _, _, _. split; [vm_compute; reflexivity|discriminate]. Qed.
