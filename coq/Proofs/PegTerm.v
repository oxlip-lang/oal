(** Termination of the parser model: for a grammar with a certificate ([cons]: which
    productions consume a token whenever they succeed; [rank]: a number that decreases along
    calls made before anything was consumed) the interpreter [run] needs an amount of fuel
    that is linear in the number of tokens: it never ends in [Fuel]. The certificate of the
    oal grammar is computed and checked by the kernel (GrammarTerm.v). *)
From Coq Require Import Lia Arith PeanoNat List Bool.
From Oal Require Import ListFacts Peg PegProofs.

Section Term.
Variable class_ok : N -> N -> bool.
Variable is_trivia : N -> bool.
Variable K_IDENT_REF : N.
Variable g : nat -> pexp.

Variable cons : nat -> bool.
Variable rank : nat -> nat.
Variables R Z : nat.

(* [IfThen i t] matches without consuming when [i] fails, so it does not count as consuming;
   but when [t] runs it runs after [i], hence [lrank] and [crank] below treat it as [Seq2 i t]. *)
Fixpoint consumes (p : pexp) : bool :=
  match p with
  | Eps | NotRefFunc => false
  | Tok _ => true
  | Seq2 a b => consumes a || consumes b
  | Alt2 a b => consumes a && consumes b
  | Mk _ a | Collapse _ a | Memo _ a => consumes a
  | Call nt => cons nt
  | IfThen _ _ => false
  end.

(** the largest rank (plus one) of a production called before anything was consumed *)
Fixpoint lrank (p : pexp) : nat :=
  match p with
  | Eps | NotRefFunc | Tok _ => 0
  | Call nt => S (rank nt)
  | Seq2 a b | IfThen a b => Nat.max (lrank a) (if consumes a then 0 else lrank b)
  | Alt2 a b => Nat.max (lrank a) (lrank b)
  | Mk _ a | Collapse _ a | Memo _ a => lrank a
  end.

(** ... of any production called at all *)
Fixpoint crank (p : pexp) : nat :=
  match p with
  | Eps | NotRefFunc | Tok _ => 0
  | Call nt => S (rank nt)
  | Seq2 a b | IfThen a b | Alt2 a b => Nat.max (crank a) (crank b)
  | Mk _ a | Collapse _ a | Memo _ a => crank a
  end.

Fixpoint psize (p : pexp) : nat :=
  match p with
  | Eps | NotRefFunc | Tok _ | Call _ => 1
  | Seq2 a b | IfThen a b | Alt2 a b => S (psize a + psize b)
  | Mk _ a | Collapse _ a | Memo _ a => S (psize a)
  end.

(* the certificate at one production: [cons] is sound; what the production calls before consuming
   has a smaller rank; [R] bounds the ranks it calls at all and [Z] its size (the two bases of [B]) *)
Definition prod_okb (nt : nat) : bool :=
  (negb (cons nt) || consumes (g nt)) && Nat.leb (lrank (g nt)) (rank nt) && Nat.leb (crank (g nt)) R && Nat.leb (psize (g nt)) Z.

Hypothesis Hg : forall nt, prod_okb nt = true.

Lemma lrank_le_crank p : lrank p <= crank p.
Proof. induction p; cbn [lrank crank]; try lia; destruct (consumes p1); lia. Qed.

Lemma prod_ok_spec nt :
  (cons nt = true -> consumes (g nt) = true) /\ lrank (g nt) <= rank nt /\ crank (g nt) <= R /\ psize (g nt) <= Z.
Proof.
  pose proof (Hg nt) as H. unfold prod_okb in H. rewrite !andb_true_iff, !Nat.leb_le in H.
  destruct H as [[[Hc Hl] Hr] Hz]. repeat split; try assumption. intros E. rewrite E in Hc. exact Hc.
Qed.

Section Toks.
Variable toks : list N.
Notation run := (Peg.run class_ok is_trivia K_IDENT_REF g toks).
Notation kind_at := (Peg.kind_at toks).

Lemma run_progress : forall n p s acc s' m, run n p s acc = Ok s' m ->
  s <= s' /\ (consumes p = true -> s < length toks /\ s < s').
Proof.
  apply (run_Ok_ind _ _ _ _ _ (fun p s _ s' _ => s <= s' /\ (consumes p = true -> s < length toks /\ s < s')));
    cbn [consumes]; auto.
  - intros s _. split; [lia|discriminate].
  - intros c s _ k Ek _. pose proof (kind_at_lt toks s k Ek). pose proof (skip_bounds is_trivia toks (S s)). split; [lia|intros _; lia].
  - intros a b s _ s1 _ s2 _ [H1 H1c] [H2 H2c]. split; [lia|].
    intros Hc. apply orb_prop in Hc as [Hc|Hc]; [destruct (H1c Hc)|destruct (H2c Hc)]; lia.
  - intros a b s _ s' _ [H1 H1c]. split; [exact H1|]. intros Hc. apply andb_prop in Hc as [Hc _]. auto.
  - intros a b s _ s' _ [H1 H1c]. split; [exact H1|]. intros Hc. apply andb_prop in Hc as [_ Hc]. auto.
  - intros nt s _ s' _ [H1 H1c]. split; [exact H1|]. intros Hc. apply H1c, prod_ok_spec, Hc.
  - intros a b s _ s1 _ s2 _ [H1 _] [H2 _]. split; [lia|discriminate].
  - intros _ _ s _. split; [lia|discriminate].
  - intros s _. split; [lia|discriminate].
Qed.

Definition left (s : nat) : nat := length toks - s.
(* [B] is [ListFacts.lex3 R Z]: tokens left, then rank, then size *)
Definition B (u r z : nat) : nat := u * (S R * S Z) + r * S Z + z.

Lemma B_size u u' r r' z z' : u' <= u -> r' <= r -> z' < z -> B u' r' z' < B u r z.
Proof. apply lex3_size. Qed.
Lemma B_rank u u' r r' z z' : u' <= u -> r' < r -> z' <= Z -> B u' r' z' < B u r z.
Proof. apply lex3_rank. Qed.
Lemma B_cut u u' r r' z z' : u' < u -> r' <= R -> z' <= Z -> B u' r' z' < B u r z.
Proof. apply lex3_cut. Qed.
Lemma B_mono_u u u' r z : u <= u' -> B u r z <= B u' r z.
Proof. apply lex3_mono_u. Qed.

Lemma psize_pos p : 1 <= psize p.
Proof. destruct p; cbn [psize]; lia. Qed.

(** sub-expressions evaluated after a first part [a] that succeeded at [s1] *)
Lemma after_first n a b s acc s1 m1 z :
  run n a s acc = Ok s1 m1 -> crank b <= R -> psize b <= Z -> psize b < z ->
  B (left s1) (lrank b) (psize b) < B (left s) (Nat.max (lrank a) (if consumes a then 0 else lrank b)) z.
Proof.
  intros E Hc Hz Hlt. destruct (run_progress _ _ _ _ _ _ E) as [H1 H1c].
  destruct (consumes a) eqn:Ea.
  - destruct (H1c eq_refl) as [Hlen Hs]. apply B_cut; [unfold left; lia|pose proof (lrank_le_crank b); lia|exact Hz].
  - apply B_size; [unfold left; lia|lia|exact Hlt].
Qed.

Theorem run_terminates : forall n p s acc,
  crank p <= R -> psize p <= Z -> B (left s) (lrank p) (psize p) <= n -> run n p s acc <> Fuel.
Proof.
  induction n as [|n IH]; intros p s acc Hcr Hsz HB.
  { pose proof (psize_pos p). unfold B in HB. lia. }
  (* a part of [p] evaluated from the same cursor has fuel enough *)
  assert (part : forall q acc', crank q <= crank p /\ lrank q <= lrank p /\ psize q < psize p -> run n q s acc' <> Fuel).
  { intros q acc' (Hc & Hl & Hz). apply IH; [lia|lia|].
    pose proof (B_size (left s) (left s) (lrank p) (lrank q) (psize p) (psize q) (le_n _) Hl Hz). lia. }
  (* and so has a second part [b], evaluated from where the first part [a] ended *)
  assert (next : forall a b s1 m1, run n a s acc = Ok s1 m1 -> crank b <= crank p -> psize b < psize p ->
            lrank p = Nat.max (lrank a) (if consumes a then 0 else lrank b) -> run n b s1 (acc ++ m1) <> Fuel).
  { intros a b s1 m1 E Hc Hz El. apply IH; [lia|lia|].
    pose proof (after_first n a b s acc s1 m1 (psize p) E ltac:(lia) ltac:(lia) Hz) as Hlt. rewrite <- El in Hlt. lia. }
  destruct p; cbn [Peg.run crank psize lrank] in *.
  - discriminate.
  - destruct (kind_at s) as [k|]; [destruct (class_ok c k)|]; discriminate.
  - assert (Ha : run n p1 s acc <> Fuel) by (apply part; lia).
    destruct (run n p1 s acc) as [s1 m1| |] eqn:E1; [|discriminate|contradiction].
    assert (Hb : run n p2 s1 (acc ++ m1) <> Fuel) by (apply (next p1 p2 s1 m1 E1); [lia|lia|reflexivity]).
    destruct (run n p2 s1 (acc ++ m1)); congruence.
  - assert (Ha : run n p1 s acc <> Fuel) by (apply part; lia).
    destruct (run n p1 s acc) as [s1 m1| |]; [discriminate| |contradiction]. apply part. lia.
  - assert (Ha : run n p s [] <> Fuel) by (apply part; lia).
    destruct (run n p s []); congruence.
  - assert (Ha : run n p s [] <> Fuel) by (apply part; lia).
    destruct (run n p s []) as [s1 [|x [|y l]]| |]; congruence.
  - destruct (prod_ok_spec nt) as (_ & Hl & Hc & Hz). apply IH; [exact Hc|exact Hz|].
    pose proof (B_rank (left s) (left s) (S (rank nt)) (lrank (g nt)) 1 (psize (g nt)) (le_n _) ltac:(lia) Hz). lia.
  - apply part. lia.
  - assert (Ha : run n p1 s acc <> Fuel) by (apply part; lia).
    destruct (run n p1 s acc) as [s1 m1| |] eqn:E1; [|discriminate|contradiction].
    assert (Hb : run n p2 s1 (acc ++ m1) <> Fuel) by (apply (next p1 p2 s1 m1 E1); [lia|lia|reflexivity]).
    destruct (run n p2 s1 (acc ++ m1)); congruence.
  - destruct (ref_func K_IDENT_REF toks acc); discriminate.
Qed.

Variable tag_body : N -> pexp.
Hypothesis g_wf : forall nt, PegProofs.wf_pexp tag_body (g nt).
Notation runm := (Peg.runm class_ok is_trivia K_IDENT_REF g toks).
Notation wf := (PegProofs.wf_pexp tag_body).
Notation tok := (PegProofs.table_ok class_ok is_trivia K_IDENT_REF g toks tag_body).

Theorem runm_terminates : forall n p s acc st,
  wf p -> tok st -> crank p <= R -> psize p <= Z -> B (left s) (lrank p) (psize p) <= n ->
  fst (runm n p s acc st) <> Fuel.
Proof.
  intros n p s acc st Hw Ht Hcr Hsz HB. pose proof (run_terminates n p s acc Hcr Hsz HB) as Hr.
  rewrite (PegProofs.runm_exact class_ok is_trivia K_IDENT_REF g toks tag_body g_wf n p s acc st Hw Ht Hr). exact Hr.
Qed.
End Toks.
End Term.
