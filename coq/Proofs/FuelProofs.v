(** The result of the evaluator model does not depend on the fuel: once an evaluation ends with
    anything but [Fuel], every larger amount of fuel gives the same result. Together with
    termination (TermProofs) the evaluation of a stratified program is a well-defined value.

    The relation [lef] ("equal unless the left side ran out of fuel") and its converse [fel]
    are reflexive and compatible with [bind]: [EvalCong.eval_cong] applies to them, here with
    the identity transformation, in ParenProofs and InlineProofs with the transformations of
    these files. *)
From Oal Require Import Eval EvalBasics EvalCong.
From Coq Require Import Lia.

Definition lef {A} (r r' : res A) : Prop := r = Fuel \/ r = r'.

Lemma lef_refl {A} (r : res A) : lef r r.
Proof. right. reflexivity. Qed.

Lemma lef_trans {A} (a b c : res A) : lef a b -> lef b c -> lef a c.
Proof. intros [->| ->] H; [left; reflexivity|exact H]. Qed.

Lemma bind_lef {A B} (r r' : res A) (k k' : A -> res B) :
  lef r r' -> (forall x, lef (k x) (k' x)) -> lef (bind r k) (bind r' k').
Proof.
  intros [->| ->] Hk; [left; reflexivity|].
  destruct r' as [x|e|p|]; cbn [bind]; [apply Hk|right; reflexivity|right; reflexivity|left; reflexivity].
Qed.

(** [lef] read from right to left: a goal [lef x y] is [fel y x] by conversion, which is how the
    converse theorems of ParenProofs and InlineProofs apply [fel_cong] *)
Definition fel {A} (r r' : res A) : Prop := lef r' r.

Lemma bind_fel {A B} (r r' : res A) (k k' : A -> res B) :
  fel r r' -> (forall x, fel (k x) (k' x)) -> fel (bind r k) (bind r' k').
Proof. apply bind_lef. Qed.

(** [EvalCong.eval_cong] and [eval_program_cong] for [lef] and for its converse. The arguments
    of the first that remain: binding discipline, the two programs, the transformation, the
    declarations of the second program in terms of the first, the condition on annotations with
    its two closure properties, the two amounts of fuel, the hypothesis on declaration bodies;
    the second takes only the condition on annotations, that it holds of the empty one, and the
    hypothesis on the resources. *)
Definition lef_cong := eval_cong (@lef) (@lef_refl) (@bind_lef).
Definition fel_cong := eval_cong (@fel) (@lef_refl) (@bind_fel).
Definition lef_program_cong := eval_program_cong (@lef) (@lef_refl) (@bind_lef).
Definition fel_program_cong := eval_program_cong (@fel) (@lef_refl) (@bind_fel).

Theorem eval_fuel_le lx P : forall n m, n <= m -> forall s e a, lef (eval lx P n s e a) (eval lx P m s e a).
Proof.
  induction n as [|n IH]; intros m Hle s e a; [left; reflexivity|].
  destruct m as [|m]; [lia|]. rewrite <- (emap_id e) at 2.
  apply (lef_cong lx P P (fun x => x)) with (ok := any_ann); try exact I.
  - intros m0 i. destruct (get_decl P m0 i) as [[]|]; reflexivity.
  - intros; exact I.
  - intros m0 i d _ s0 a0 _. apply IH. lia.
  - intros c _ s0 a0 _. apply IH. lia.
Qed.

Corollary eval_fuel_step lx P n s e a : lef (eval lx P n s e a) (eval lx P (S n) s e a).
Proof. apply eval_fuel_le. lia. Qed.

Lemma lef_more lx P n m s e a (r : res (st * aval)) : lef r (eval lx P n s e a) -> n <= m -> lef r (eval lx P m s e a).
Proof. intros H Hle. eapply lef_trans; [exact H|apply eval_fuel_le, Hle]. Qed.

Theorem eval_program_fuel_le lx P n m rs : n <= m -> lef (eval_program lx P n rs) (eval_program lx P m rs).
Proof.
  intros Hle. rewrite <- (map_id rs) at 2.
  apply (lef_program_cong lx P P (fun x => x) any_ann I).
  intros c _ s a _. apply eval_fuel_le, Hle.
Qed.

Corollary eval_program_fuel_mono lx P n m rs r :
  eval_program lx P n rs = r -> r <> Fuel -> n <= m -> eval_program lx P m rs = r.
Proof. intros H Hr Hle. destruct (eval_program_fuel_le lx P n m rs Hle); congruence. Qed.

Corollary eval_program_fuel_agree lx P n1 n2 rs :
  eval_program lx P n1 rs <> Fuel -> eval_program lx P n2 rs <> Fuel -> eval_program lx P n1 rs = eval_program lx P n2 rs.
Proof.
  intros H1 H2. destruct (Nat.le_ge_cases n1 n2) as [Hle|Hle].
  - symmetry. exact (eval_program_fuel_mono lx P n1 n2 rs _ eq_refl H1 Hle).
  - exact (eval_program_fuel_mono lx P n2 n1 rs _ eq_refl H2 Hle).
Qed.
