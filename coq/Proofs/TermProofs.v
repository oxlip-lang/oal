(** Termination of the evaluator model: for a stratified first-order program (Model/Strat.v:
    what the recursion check guarantees, re-checked on the transcription of every accepted
    program by the tie) an explicit amount of fuel suffices, for every expression, state and
    annotation: the evaluation never ends in [Fuel]. The measure is lexicographic: the number
    of memoised (cut) declarations not yet in the reference table, the rank of the
    declarations the expression enters, the size of the expression. *)
From Oal Require Import Eval Strat ListFacts ClosureProofs.
From Coq Require Import Lia Arith.
Local Open Scope nat_scope.

Lemma compose_nf anns : forall acc, compose anns acc <> Fuel.
Proof. induction anns as [|[a|] anns IH]; intros acc; cbn [compose]; [discriminate|apply IH|discriminate]. Qed.
Lemma cast_schema_nf va : cast_schema va <> Fuel.
Proof. destruct va as [v a]. destruct v; cbn; discriminate. Qed.
Lemma cast_content_nf va : cast_content va <> Fuel.
Proof. destruct va as [v a]. destruct v; cbn; discriminate. Qed.
Lemma cast_ranges_nf va : cast_ranges va <> Fuel.
Proof. destruct va as [v a]. destruct v; cbn; discriminate. Qed.
Lemma cast_string_nf : forall v, cast_string v <> Fuel.
Proof. fix IH 1. intros v. destruct v; cbn [cast_string]; try discriminate. apply IH. Qed.
Lemma cast_property_nf : forall v, cast_property v <> Fuel.
Proof. fix IH 1. intros v. destruct v; cbn [cast_property]; try discriminate. apply IH. Qed.
Lemma cast_status_nf : forall v, cast_http_status v <> Fuel.
Proof. fix IH 1. intros v. destruct v; cbn [cast_http_status]; try discriminate; try apply IH. destruct (N.leb 100 n && N.leb n 599); discriminate. Qed.
Lemma cast_object_nf : forall v, cast_object v <> Fuel.
Proof. fix IH 1. intros v. destruct v; cbn [cast_object]; try discriminate. apply IH. Qed.
Lemma cast_transfer_nf : forall v, cast_transfer v <> Fuel.
Proof. fix IH 1. intros v. destruct v; cbn [cast_transfer]; try discriminate. apply IH. Qed.
Lemma cast_uri_nf : forall v, cast_uri v <> Fuel.
Proof. fix IH 1. intros v. destruct v; cbn [cast_uri]; try discriminate; [destruct r; discriminate|apply IH]. Qed.
Lemma cast_relation_nf : forall v, cast_relation v <> Fuel.
Proof. fix IH 1. intros v. destruct v; cbn [cast_relation]; try discriminate. apply IH. Qed.
Lemma cast_lambda_nf : forall v, cast_lambda v <> Fuel.
Proof. fix IH 1. intros v. destruct v; cbn [cast_lambda]; try discriminate. apply IH. Qed.
Lemma uri_append_nf l r : uri_append l r <> Fuel.
Proof. destruct l, r. unfold uri_append. destruct (rev path); discriminate. Qed.
Lemma prim_value_nf p a : prim_value p a <> Fuel.
Proof. destruct (prim_value_cases p) as [->|[->|[->|[->|[->|[_ ->]]]]]]; discriminate. Qed.

Lemma enum_in {A} (l : list A) n x : nth_error l n = Some x -> In (N.of_nat n, x) (enum l).
Proof.
  unfold enum. intros H.
  assert (Hg : forall k, nth_error l n = Some x -> In (N.of_nat (k + n), x) (combine (map N.of_nat (List.seq k (length l))) l)).
  { clear H. revert n. induction l as [|y l IH]; intros n k Hn; [destruct n; discriminate|].
    cbn [length List.seq map combine]. destruct n as [|n]; cbn [nth_error] in Hn.
    - injection Hn as ->. left. rewrite Nat.add_0_r. reflexivity.
    - right. replace (k + S n) with (S k + n) by lia. apply IH, Hn. }
  apply (Hg 0 H).
Qed.

Lemma enum_inv {A} (l : list A) i x : In (i, x) (enum l) -> nth_error l (N.to_nat i) = Some x.
Proof.
  unfold enum. assert (G : forall s, In (i, x) (combine (map N.of_nat (List.seq s (length l))) l) -> exists n, i = N.of_nat (s + n) /\ nth_error l n = Some x).
  { induction l as [|y l IH]; intros s H; [destruct H|]. cbn [length List.seq map combine] in H. destruct H as [E|H].
    - injection E as <- <-. exists 0. split; [rewrite Nat.add_0_r; reflexivity|reflexivity].
    - destruct (IH (S s) H) as (n & -> & Hn). exists (S n). split; [f_equal; lia|exact Hn]. }
  intros H. destruct (G 0 H) as (n & -> & Hn). cbn [Nat.add]. rewrite Nat2N.id. exact Hn.
Qed.

Lemma get_decl_enum P m i d : get_decl P m i = Some d -> exists ds, In (m, ds) (enum P) /\ In (i, d) (enum ds).
Proof.
  unfold get_decl. destruct (nth_error P (N.to_nat m)) as [ds|] eqn:Em; [|discriminate]. intros Hd. exists ds.
  rewrite <- (N2Nat.id m), <- (N2Nat.id i). split; apply enum_in; assumption.
Qed.

Section Term.
  Variable P : prog.
  Variable rank : N -> N -> nat.
  Variables R Z : nat.
  Hypothesis Hdecl : forall m i d, get_decl P m i = Some d -> decl_sokb P rank R Z m i d = true.

  Notation size := (@Strat.size).
  Notation erank := (Strat.erank P rank).
  Notation fo := (Strat.fo P).

  Definition cutkeys : list rkey :=
    flat_map (fun mds : N * list decl =>
                flat_map (fun idd : N * decl => if cutd (snd idd) then [key_of (snd idd) (fst mds) (fst idd)] else [])
                         (enum (snd mds)))
             (enum P).
  Definition inb (k : rkey) (r : list (rkey * option aval)) : bool := existsb (fun kv => rkey_eqb k (fst kv)) r.
  Definition U (s : st) : nat := length (filter (fun k => negb (inb k (refs s))) cutkeys).
  (** [R] bounds the ranks and [Z] the sizes of the declaration bodies and of the resources ([Hdecl],
      [strat_okb]); with these weights [B] is the lexicographic order of [ListFacts.lex3] *)
  Definition B (u r z : nat) : nat := u * (S R * S Z) + r * S Z + z.

  Lemma inb_dom k r : inb k r = true <-> dom r k.
  Proof.
    unfold inb, dom. rewrite existsb_exists. split.
    - intros ([k' x] & Hin & Hk). cbn [fst] in Hk. apply rkey_eqb_eq in Hk. subst. apply (in_map fst) in Hin. exact Hin.
    - intros H. apply in_map_iff in H as ([k' x] & Hk & Hin). cbn [fst] in Hk. subst. exists (k, x). split; [exact Hin|apply rkey_eqb_refl].
  Qed.

  Lemma inb_mono s s' : (forall k, dom (refs s) k -> dom (refs s') k) ->
    forall k, negb (inb k (refs s')) = true -> negb (inb k (refs s)) = true.
  Proof.
    intros H k Hk. apply negb_true_iff in Hk. apply negb_true_iff.
    destruct (inb k (refs s)) eqn:E; [|reflexivity]. apply inb_dom, H, inb_dom in E. congruence.
  Qed.

  Lemma U_mono s s' : (forall k, dom (refs s) k -> dom (refs s') k) -> U s' <= U s.
  Proof. intros H. unfold U. apply filter_len_mono, (inb_mono s s' H). Qed.

  Lemma U_dec s s' key : (forall k, dom (refs s) k -> dom (refs s') k) -> In key cutkeys ->
    ~ dom (refs s) key -> dom (refs s') key -> U s' < U s.
  Proof.
    intros H Hin Hn Hd. unfold U. apply (filter_len_strict _ _ cutkeys key); [exact (inb_mono s s' H)|exact Hin| |].
    - apply negb_true_iff. destruct (inb key (refs s)) eqn:E; [apply inb_dom in E; contradiction|reflexivity].
    - apply negb_false_iff. apply inb_dom, Hd.
  Qed.

  Lemma cutkeys_in m i d : get_decl P m i = Some d -> cutd d = true -> In (key_of d m i) cutkeys.
  Proof.
    intros Hd Hc. destruct (get_decl_enum P m i d Hd) as (ds & Hm & Hi). unfold cutkeys.
    apply in_flat_map. exists (m, ds). split; [exact Hm|]. cbn [fst snd].
    apply in_flat_map. exists (i, d). split; [exact Hi|]. cbn [fst snd]. rewrite Hc. left. reflexivity.
  Qed.

  Lemma B_size u u' r r' z z' : u' <= u -> r' <= r -> z' < z -> B u' r' z' < B u r z.
  Proof. apply lex3_size. Qed.
  Lemma B_rank u u' r r' z z' : u' <= u -> r' < r -> z' <= Z -> B u' r' z' < B u r z.
  Proof. apply lex3_rank. Qed.
  Lemma B_cut u u' r r' z z' : u' < u -> r' <= R -> z' <= Z -> B u' r' z' < B u r z.
  Proof. apply lex3_cut. Qed.

  Lemma size_pos e : 1 <= size e.
  Proof. destruct e; cbn [Strat.size]; lia. Qed.

  Lemma B_ge_size u r z : z <= B u r z.
  Proof. unfold B. lia. Qed.

  (** the states an evaluation passes through when at most [u] cut declarations were missing from the table at its start *)
  Definition within (u : nat) (s : st) : Prop := inv s /\ U s <= u.

  (** [closure] says what the state after a step is like, so the rest of the evaluation only
      has to be safe from such states *)
  Lemma bind_nf_good {Y C} s u (Q : st -> Y -> Prop) (r : res (st * Y)) (k : st * Y -> res C) :
    (inv s -> good s Q r) -> within u s -> r <> Fuel -> (forall s1 b, within u s1 -> Q s1 b -> k (s1, b) <> Fuel) ->
    bind r k <> Fuel.
  Proof.
    intros Hg [Hi Hu] Hr Hk. destruct r as [[s1 b]| | |]; cbn [bind]; try discriminate; [|contradiction].
    destruct (Hg Hi) as (Hi1 & Hq & Hd & _). apply Hk; [split; [exact Hi1|]|exact Hq]. pose proof (U_mono s s1 Hd). lia.
  Qed.

  Section Lists.
    Context {X Y : Type}.
    Variable f : st -> X -> res (st * Y).
    Variable Q : st -> Y -> Prop.
    Variable u : nat.
    Hypothesis Hgood : forall s x, inv s -> good s Q (f s x).

    Lemma map_st_nf {C} l : (forall s x, In x l -> within u s -> f s x <> Fuel) ->
      forall s (k : st * list Y -> res C), within u s ->
      (forall s1 bs, within u s1 -> k (s1, bs) <> Fuel) -> bind (map_st f s l) k <> Fuel.
    Proof.
      induction l as [|x l IH]; intros Hnf s k Hw Hk; cbn [map_st]; [apply Hk, Hw|].
      rewrite bind_assoc. apply (bind_nf_good s u Q); [apply Hgood|exact Hw|apply Hnf; [left; reflexivity|exact Hw]|].
      intros s1 b Hw1 _. cbn beta iota. rewrite bind_assoc.
      apply IH; [intros s0 y Hy; apply Hnf; right; exact Hy|exact Hw1|].
      intros s2 bs Hw2. apply Hk, Hw2.
    Qed.

    Lemma opt_st_nf {C} o s (k : st * option Y -> res C) : (forall x, o = Some x -> f s x <> Fuel) -> within u s ->
      (forall s1 ob, within u s1 -> k (s1, ob) <> Fuel) -> bind (opt_st f s o) k <> Fuel.
    Proof.
      intros Hnf Hw Hk. destruct o as [x|]; cbn [opt_st]; [|apply Hk, Hw].
      rewrite bind_assoc. apply (bind_nf_good s u Q); [apply Hgood|exact Hw|apply Hnf; reflexivity|].
      intros s1 b Hw1 _. apply Hk, Hw1.
    Qed.
  End Lists.

  Section Steps.
    Variable ev : st -> expr -> res (st * aval).
    Variable ok : expr -> Prop.
    Variable u : nat.
    Hypothesis Hgood : forall s e, inv s -> good s VAL (ev s e).
    Hypothesis Hnf : forall s e, ok e -> within u s -> ev s e <> Fuel.

    Lemma ev_nf {C} s e (k : st * aval -> res C) : ok e -> within u s ->
      (forall s1 v, within u s1 -> k (s1, v) <> Fuel) -> bind (ev s e) k <> Fuel.
    Proof.
      intros He Hw Hk. apply (bind_nf_good s u VAL); [apply Hgood|exact Hw|apply Hnf; assumption|].
      intros s1 v Hw1 _. apply Hk, Hw1.
    Qed.

    Lemma cast_good_nil {Y} (c : aval -> res Y) s e : inv s ->
      good s (CL (fun _ => [])) (do (s', v) <- ev s e; do y <- c v; Ok (s', y)).
    Proof. apply (cast_good ev Hgood c (fun y => y) (fun _ => [])). intros. apply sub_nil. Qed.

    Lemma cast_nf {Y} (c : aval -> res Y) s e : (forall v, c v <> Fuel) -> ok e -> within u s ->
      (do (s', v) <- ev s e; do y <- c v; Ok (s', y)) <> Fuel.
    Proof.
      intros Hc He Hw. apply ev_nf; try assumption. intros s1 v _. apply bind_nf; [apply Hc|discriminate].
    Qed.

    Lemma casts_nf {Y C} (c : aval -> res Y) es s (k : st * list Y -> res C) :
      (forall v, c v <> Fuel) -> (forall x, In x es -> ok x) -> within u s ->
      (forall s1 bs, within u s1 -> k (s1, bs) <> Fuel) ->
      bind (map_st (fun s p => do (s', v) <- ev s p; do y <- c v; Ok (s', y)) s es) k <> Fuel.
    Proof.
      intros Hc Hes. apply (map_st_nf _ _ u (cast_good_nil c)). intros s0 x Hx. apply cast_nf; [exact Hc|apply Hes, Hx].
    Qed.

    Lemma ocast_nf {Y C} (c : aval -> res Y) o s (k : st * option Y -> res C) :
      (forall v, c v <> Fuel) -> (forall x, o = Some x -> ok x) -> within u s ->
      (forall s1 ob, within u s1 -> k (s1, ob) <> Fuel) ->
      bind (opt_st (fun s p => do (s', v) <- ev s p; do y <- c v; Ok (s', y)) s o) k <> Fuel.
    Proof.
      intros Hc Ho Hw. apply (opt_st_nf _ _ u (cast_good_nil c)); [|exact Hw].
      intros x Hx. apply cast_nf; [exact Hc|apply Ho, Hx|exact Hw].
    Qed.

    Lemma bind_args_nf args : (forall x, In x args -> ok x) ->
      forall s ps sc, within u s -> bind_args ev s ps args sc <> Fuel.
    Proof.
      induction args as [|a args IH]; intros Hok s [|p ps] sc Hw; cbn [bind_args]; try discriminate.
      apply ev_nf; [apply Hok; left; reflexivity|exact Hw|].
      intros s1 [v a1] Hw1. apply IH; [intros x Hx; apply Hok; right; exact Hx|exact Hw1].
    Qed.

    Lemma eval_metas_nf ms : (forall k x, In (k, x) ms -> ok x) ->
      forall s acc, within u s -> eval_metas ev s ms acc <> Fuel.
    Proof.
      induction ms as [|[k rhs] ms IH]; intros Hok s [[status media] headers] Hw; cbn [eval_metas]; [discriminate|].
      apply ev_nf; [apply (Hok k); left; reflexivity|exact Hw|].
      intros s1 v Hw1.
      assert (IH' : forall acc, eval_metas ev s1 ms acc <> Fuel)
        by (intros acc; apply IH; [intros k0 x Hx; apply (Hok k0); right; exact Hx|exact Hw1]).
      destruct k as [|[p|p|]]; (apply bind_nf; [|intros x _; apply IH']);
        [apply cast_string_nf|apply cast_status_nf|apply cast_status_nf|apply cast_object_nf].
    Qed.
  End Steps.

  (** [e'] is a sub-expression the induction hypothesis covers when the measure is taken at [e] *)
  Definition below (e e' : expr) : Prop := size e' < size e /\ erank e' <= erank e /\ fo e' = true.

  Lemma below_list sz rk l x : In x l -> forallb fo l = true ->
    fold_right (fun y acc => size y + acc) 0 l < sz -> fold_right (fun y acc => Nat.max (erank y) acc) 0 l <= rk ->
    size x < sz /\ erank x <= rk /\ fo x = true.
  Proof.
    intros Hx Hfo Hs Hr. pose proof (sum_in size l x Hx). pose proof (max_in erank l x Hx).
    rewrite forallb_forall in Hfo. split; [lia|]. split; [lia|apply Hfo, Hx].
  Qed.

  Lemma fo_head f args : fo (EApp f args) = true ->
    (exists m i, f = EDecl m i /\ match get_decl P m i with Some d => d_params d <> [] | None => True end) \/ f = EConcat.
  Proof.
    cbn [Strat.fo]. intros H. apply andb_prop in H as [H _].
    destruct f; try discriminate; [|right; reflexivity]. left. exists m, i. split; [reflexivity|].
    destruct (get_decl P m i) as [d|]; [|exact I]. destruct (d_params d); discriminate.
  Qed.

  Lemma below_subs e c : fo e = true -> In c (subs e) -> below e c.
  Proof.
    intros Hfo Hc. unfold below.
    destruct e; cbn [subs] in Hc; cbn [Strat.fo] in Hfo; cbn [Strat.size Strat.erank];
      try (destruct Hc as [<-|[]]; auto; fail); try (destruct Hc; fail).
    - (* EApp *)
      pose proof (fo_head _ _ Hfo) as Hh. apply andb_prop in Hfo as [_ Hfo]. destruct Hc as [<-|Hc].
      + split; [lia|split; [lia|]]. destruct Hh as [(m & i & -> & _)| ->]; reflexivity.
      + apply (below_list _ _ args c Hc Hfo); lia.
    - apply (below_list _ _ ps c Hc Hfo); lia.
    - apply (below_list _ _ es c Hc Hfo); lia.
    - (* ECont *)
      apply andb_prop in Hfo as [Hfo_b Hfo_m]. apply in_app_or in Hc as [Hc|Hc].
      + apply in_opt_list in Hc as ->. split; [lia|split; [lia|exact Hfo_b]].
      + apply in_map_iff in Hc as ([k x] & <- & Hx). cbn [snd].
        pose proof (sum_in (fun ke : N * expr => match ke with (_, e') => size e' end) metas (k, x) Hx) as Hsz.
        pose proof (max_in (fun ke : N * expr => match ke with (_, e') => erank e' end) metas (k, x) Hx) as Hrk.
        rewrite forallb_forall in Hfo_m. specialize (Hfo_m (k, x) Hx). cbn beta iota in Hsz, Hrk, Hfo_m.
        split; [lia|split; [lia|exact Hfo_m]].
    - (* EXfer *)
      apply andb_prop in Hfo as [Hfo1 Hfo_p]. apply andb_prop in Hfo1 as [Hfo_d Hfo_r].
      apply in_app_or in Hc as [Hc|[<-|Hc]].
      + apply in_opt_list in Hc as ->. split; [lia|split; [lia|exact Hfo_d]].
      + split; [lia|split; [lia|exact Hfo_r]].
      + apply in_opt_list in Hc as ->. split; [lia|split; [lia|exact Hfo_p]].
    - (* EUri *)
      apply andb_prop in Hfo as [Hfo_s Hfo_p]. apply in_app_or in Hc as [Hc|Hc].
      + apply in_flat_map in Hc as ([x|v] & Hx & Hc); [destruct Hc|]. destruct Hc as [<-|[]].
        pose proof (sum_in (fun sg : str + expr => match sg with inl _ => 0 | inr e' => size e' end) segs (inr v) Hx) as Hsz.
        pose proof (max_in (fun sg : str + expr => match sg with inl _ => 0 | inr e' => erank e' end) segs (inr v) Hx) as Hrk.
        rewrite forallb_forall in Hfo_s. specialize (Hfo_s (inr v) Hx). cbn beta iota in Hsz, Hrk, Hfo_s.
        split; [lia|split; [lia|exact Hfo_s]].
      + apply in_opt_list in Hc as ->. split; [lia|split; [lia|exact Hfo_p]].
    - (* ERel *)
      apply andb_prop in Hfo as [Hfo_u Hfo_x]. destruct Hc as [<-|Hc].
      + split; [lia|split; [lia|exact Hfo_u]].
      + apply (below_list _ _ xfers c Hc Hfo_x); lia.
  Qed.

  Lemma decl_ok m i d : get_decl P m i = Some d ->
    size (d_rhs d) <= Z /\ erank (d_rhs d) <= R /\ fo (d_rhs d) = true /\ (cutd d = false -> erank (d_rhs d) < erank (EDecl m i)).
  Proof.
    intros Hd. pose proof (Hdecl m i d Hd) as Hok. unfold decl_sokb, expr_okb in Hok.
    apply andb_prop in Hok as [Hok Hrk]. apply andb_prop in Hok as [Hok Hfo]. apply andb_prop in Hok as [Hsz Her].
    apply Nat.leb_le in Hsz, Her. repeat split; try assumption. intros Hc. rewrite Hc in Hrk. apply Nat.leb_le in Hrk.
    cbn [Strat.erank]. unfold cutb. rewrite Hd, Hc. lia.
  Qed.

  Section FuelStep.
    Variable ev : st -> expr -> ymap -> res (st * aval).
    Variable n : nat.
    Hypothesis Hclo : forall s e a, inv s -> good s VAL (ev s e a).
    (* needed once: to compute what the function of an application evaluates to *)
    Hypothesis Hunf : forall s e a, ev s e a = Fuel \/ exists ev', ev s e a = eval_step false P ev' s e a.
    Hypothesis IH : forall s e a, inv s -> fo e = true -> B (U s) (erank e) (size e) <= n -> ev s e a <> Fuel.

    Lemma IH_subs s e : fo e = true -> B (U s) (erank e) (size e) <= S n ->
      forall a' s' c, In c (subs e) -> within (U s) s' -> ev s' c a' <> Fuel.
    Proof.
      intros Hfo HB a' s' c Hc [Hi' Hu']. destruct (below_subs e c Hfo Hc) as (Hs' & Hr' & Hf'). apply IH; [exact Hi'|exact Hf'|].
      pose proof (B_size (U s) (U s') (erank e) (erank c) (size e) (size c) Hu' Hr' Hs'). lia.
    Qed.

    (** a declaration without parameters: memoised, one more cut declaration is in the table
        while its body runs; otherwise the rank decreases *)
    Lemma fuel_decl s m i a : inv s -> B (U s) (erank (EDecl m i)) (size (EDecl m i)) <= S n ->
      eval_step false P ev s (EDecl m i) a <> Fuel.
    Proof.
      intros Hi HB. cbn [eval_step].
      destruct (get_decl P m i) as [d|] eqn:Hd; [|discriminate].
      destruct (decl_ok m i d Hd) as (Hsz & Her & Hfo' & Hrk).
      destruct (d_params d) as [|p ps] eqn:Hps; [|discriminate].
      apply bind_nf; [apply compose_nf|]. intros da _.
      assert (Hcut : cutd d = (match d_ref d with Some _ => true | None => false end) || d_rec d) by (unfold cutd; rewrite Hps; reflexivity).
      destruct ((match d_ref d with Some _ => true | None => false end) || d_rec d) eqn:Hc.
      - set (key := decl_key d m i).
        destruct (rget key (refs s)) as [[v|]|] eqn:Hget; try discriminate.
        assert (Hkey : match key with KRec _ _ _ => False | _ => True end) by (subst key; unfold decl_key; destruct (d_ref d); exact I).
        apply bind_nf; [|intros [s2 v] _; discriminate].
        apply IH; [exact (inv_set_refs_none s key Hi Hget Hkey)|exact Hfo'|].
        assert (Hu1 : U (set_refs s (rinsert key None (refs s))) < U s).
        { apply (U_dec s _ key).
          - intros k Hk. cbn [set_refs refs]. apply rinsert_dom. right. exact Hk.
          - subst key. apply (cutkeys_in m i d Hd Hcut).
          - apply rget_none_dom, Hget.
          - cbn [set_refs refs]. apply rinsert_dom. left. reflexivity. }
        pose proof (B_cut (U s) _ (erank (EDecl m i)) (erank (d_rhs d)) (size (EDecl m i)) (size (d_rhs d)) Hu1 Her Hsz).
        clear - HB H. lia.
      - apply IH; [exact Hi|exact Hfo'|].
        pose proof (B_rank (U s) (U s) (erank (EDecl m i)) (erank (d_rhs d)) (size (EDecl m i)) (size (d_rhs d)) (le_n _) (Hrk Hcut) Hsz).
        clear - HB H. lia.
    Qed.

    (** the head of a first-order application evaluates, in one step, to a declared function or to
        the built-in concat *)
    Lemma app_head_nf {C} s f args (k : st * aval -> res C) : fo (EApp f args) = true -> ev s f [] <> Fuel ->
      (forall m i d, f = EDecl m i -> get_decl P m i = Some d -> d_params d <> [] -> k (s, (VLamExt m i, [])) <> Fuel) ->
      (f = EConcat -> k (s, (VLamInt, [])) <> Fuel) ->
      bind (ev s f []) k <> Fuel.
    Proof.
      intros Hfo Hnf Hdecl' Hconcat. destruct (Hunf s f []) as [Hf|[ev' Hf]]; [contradiction|]. rewrite Hf.
      destruct (fo_head f args Hfo) as [(m & i & -> & Hp)| ->]; cbn [eval_step]; [|apply Hconcat; reflexivity].
      destruct (get_decl P m i) as [d|] eqn:Hd; [|discriminate].
      destruct (d_params d) as [|p ps] eqn:Hps; [destruct (Hp eq_refl)|].
      apply (Hdecl' m i d eq_refl Hd). rewrite Hps. discriminate.
    Qed.

    (** an application: the body of the declared function has a smaller rank *)
    Lemma fuel_app s f args a : inv s -> fo (EApp f args) = true ->
      B (U s) (erank (EApp f args)) (size (EApp f args)) <= S n -> eval_step false P ev s (EApp f args) a <> Fuel.
    Proof.
      intros Hi Hfo HB. pose proof (IH_subs s _ Hfo HB []) as IH0. pose proof (fun s e => Hclo s e []) as Hclo0.
      pose proof (conj Hi (le_n _) : within (U s) s) as Hw.
      cbn [subs] in IH0. cbn [eval_step].
      apply (app_head_nf s f args _ Hfo (IH0 s f (or_introl eq_refl) Hw)).
      - intros m i d -> Hd Hps. cbn [bind fst cast_lambda]. rewrite Hd.
        destruct (decl_ok m i d Hd) as (Hsz & Her & Hfo' & Hrk).
        assert (Hcut : cutd d = false) by (unfold cutd; destruct (d_params d); [contradiction|reflexivity]).
        assert (Hlt : erank (d_rhs d) < erank (EApp (EDecl m i) args)) by (specialize (Hrk Hcut); cbn [Strat.erank] in *; lia).
        assert (Hsc0 : scope_cl [] (allk s)) by (intros x v a0 []).
        apply (bind_nf_good s (U s) _ _ _ (fun _ => bind_args_good _ Hclo0 args s (d_params d) [] Hi Hsc0) Hw).
        { apply (bind_args_nf _ _ (U s) Hclo0 IH0 args (fun x Hx => or_intror Hx)), Hw. }
        intros s2 sc [Hi2 Hu2] Hsc. cbn beta iota. apply bind_nf; [apply compose_nf|]. intros da _.
        apply bind_nf; [|intros [s3 r] _; discriminate].
        apply IH; [apply inv_push; [exact Hi2|exact (scope_cl_mono _ _ _ (allk_push s2 sc) Hsc)]|exact Hfo'|].
        change (U (push_scope s2 sc)) with (U s2).
        pose proof (B_rank (U s) (U s2) (erank (EApp (EDecl m i) args)) (erank (d_rhs d))
                      (size (EApp (EDecl m i) args)) (size (d_rhs d)) Hu2 Hlt Hsz).
        clear - HB H. lia.
      - intros ->. cbn [bind fst cast_lambda].
        apply (map_st_nf _ VAL (U s) Hclo0 args (fun s0 x Hx => IH0 s0 x (or_intror Hx))); [exact Hw|].
        intros s2 vs _. destruct vs as [|vl [|vr [|v3 vs]]]; try discriminate.
        apply bind_nf; [apply cast_uri_nf|]. intros ru _. apply bind_nf; [apply cast_uri_nf|]. intros lu _.
        apply bind_nf; [apply uri_append_nf|]. discriminate.
    Qed.

    Lemma fuel_step s e a : inv s -> fo e = true -> B (U s) (erank e) (size e) <= S n -> eval_step false P ev s e a <> Fuel.
    Proof.
      intros Hi Hfo HB. pose proof (IH_subs s e Hfo HB) as IHsub. pose proof (IHsub []) as IH0.
      pose proof (fun s e => Hclo s e []) as Hclo0. pose proof (conj Hi (le_n _) : within (U s) s) as Hw.
      (* the sub-expressions are named by their place in [subs e] *)
      destruct e; cbn [eval_step]; cbn [subs] in IHsub, IH0.
      + (* ETerm *) apply bind_nf; [apply compose_nf|]. intros x _. apply IHsub; [left; reflexivity|exact Hw].
      + (* ESub *) apply IHsub; [left; reflexivity|exact Hw].
      + apply bind_nf; [apply prim_value_nf|discriminate].
      + discriminate.
      + discriminate.
      + discriminate.
      + exact (fuel_decl s m i a Hi HB).
      + discriminate.
      + destruct (lookup_binding x (scopes s)) as [[v prev]|]; discriminate.
      + exact (fuel_app s e args a Hi Hfo HB).
      + (* ERec *)
        apply bind_nf; [|intros [s1 rhs] _; discriminate].
        apply IHsub; [left; reflexivity|]. split; [apply inv_push_rec, Hi|apply le_n].
      + (* EObj *)
        apply (casts_nf _ _ (U s) Hclo0 IH0 (fun v => cast_property (fst v)) ps s);
          [intros v; apply cast_property_nf|auto|exact Hw|intros s1 props _; discriminate].
      + (* EProp *)
        apply (ev_nf _ _ (U s) Hclo0 IH0); [left; reflexivity|exact Hw|].
        intros s1 v _. apply bind_nf; [apply cast_schema_nf|discriminate].
      + (* EUnary *)
        apply (ev_nf _ _ (U s) Hclo0 IH0); [left; reflexivity|exact Hw|].
        intros s1 v _. apply bind_nf; [apply cast_property_nf|discriminate].
      + (* EArr *)
        apply (ev_nf _ _ (U s) Hclo0 IH0); [left; reflexivity|exact Hw|].
        intros s1 v _. apply bind_nf; [apply cast_schema_nf|discriminate].
      + (* EOp *)
        destruct (N.eqb op 3); [|destruct (vop_of op) as [vo|]; [|discriminate]].
        * apply (casts_nf _ _ (U s) Hclo0 IH0 cast_ranges es s _ cast_ranges_nf (fun x Hx => Hx) Hw). intros s1 rs _. discriminate.
        * apply (casts_nf _ _ (U s) Hclo0 IH0 cast_schema es s _ cast_schema_nf (fun x Hx => Hx) Hw). intros s1 rs _. discriminate.
      + (* ECont *)
        apply (ocast_nf _ _ (U s) Hclo0 IH0 cast_schema body s _ cast_schema_nf); [|exact Hw|].
        { intros x ->. left. reflexivity. }
        intros s1 schema Hw1. cbn beta iota zeta.
        apply bind_nf; [|intros [s2 [[status media] headers]] _; discriminate].
        apply (eval_metas_nf _ _ (U s) Hclo0 IH0 metas); [|exact Hw1].
        intros k x Hx. apply in_or_app. right. exact (in_map snd _ _ Hx).
      + (* EXfer *)
        apply (ocast_nf _ _ (U s) Hclo0 IH0 cast_content domain s _ cast_content_nf); [|exact Hw|].
        { intros x ->. left. reflexivity. }
        intros s1 dom0 Hw1. cbn beta iota zeta.
        apply (ev_nf _ _ (U s) Hclo0 IH0); [apply in_or_app; right; left; reflexivity|exact Hw1|].
        intros s2 rv Hw2. cbn beta iota. apply bind_nf; [apply cast_ranges_nf|]. intros rg _.
        apply (ocast_nf _ _ (U s) Hclo0 IH0 (fun v => cast_object (fst v)) params s2 _ (fun v => cast_object_nf (fst v))); [|exact Hw2|].
        { intros x ->. apply in_or_app. right. right. left. reflexivity. }
        intros s3 prm _. discriminate.
      + (* EUri *)
        apply (map_st_nf _ (CL (fun _ => [])) (U s)) with (l := segs); [| |exact Hw|].
        { intros s0 [x|v] Hi0; [apply good_ret; [exact Hi0|apply sub_nil]|].
          apply (cast_good _ Hclo0 _ UVar (fun _ => [])); [intros; apply sub_nil|exact Hi0]. }
        { intros s0 [x|v] Hx Hw0; [discriminate|].
          apply (ev_nf _ _ (U s) Hclo0 IH0); [|exact Hw0|].
          - apply in_or_app. left. apply in_flat_map. exists (inr v). split; [exact Hx|left; reflexivity].
          - intros s1 pv _. apply bind_nf; [apply cast_property_nf|discriminate]. }
        intros s1 path Hw1. cbn beta iota.
        apply (ocast_nf _ _ (U s) Hclo0 IH0 (fun v => cast_object (fst v)) params s1 _ (fun v => cast_object_nf (fst v))); [|exact Hw1|].
        { intros x ->. apply in_or_app. right. left. reflexivity. }
        intros s2 prm _. discriminate.
      + (* ERel *)
        apply (ev_nf _ _ (U s) Hclo0 IH0); [left; reflexivity|exact Hw|].
        intros s1 uv Hw1. cbn beta iota. apply bind_nf; [apply cast_uri_nf|]. intros ur _.
        apply (casts_nf _ _ (U s) Hclo0 IH0 (fun v => cast_transfer (fst v)) xfers s1);
          [intros v; apply cast_transfer_nf|intros x Hx; right; exact Hx|exact Hw1|intros s2 ts _; discriminate].
    Qed.
  End FuelStep.

  Theorem fuel_ok : forall n s e a, inv s -> fo e = true -> B (U s) (erank e) (size e) <= n ->
    eval false P n s e a <> Fuel.
  Proof.
    induction n as [|n IH]; intros s e a Hi Hfo HB.
    - pose proof (size_pos e). pose proof (B_ge_size (U s) (erank e) (size e)). lia.
    - rewrite eval_S. exact (fuel_step _ n (closure P n) (eval_unfold false P n) IH s e a Hi Hfo HB).
  Qed.
End Term.

Lemma all_decls_get P f m i d : all_decls P f = true -> get_decl P m i = Some d -> f m i d = true.
Proof.
  unfold all_decls. intros H Hd. destruct (get_decl_enum P m i d Hd) as (ds & Hm & Hi).
  rewrite forallb_forall in H. specialize (H (m, ds) Hm). rewrite forallb_forall in H. exact (H (i, d) Hi).
Qed.

Lemma all_decls_intro P f : (forall m i d, get_decl P m i = Some d -> f m i d = true) -> all_decls P f = true.
Proof.
  intros H. unfold all_decls. apply forallb_forall. intros [m ds] Hm. apply forallb_forall. intros [i d] Hi. cbn [fst snd] in *.
  apply H. unfold get_decl. rewrite (enum_inv P m ds Hm). apply (enum_inv ds i d Hi).
Qed.

Lemma refs_table_nf r : refs_table r <> Fuel.
Proof.
  induction r as [|[k [v|]] r IH]; cbn [refs_table]; [discriminate| |exact IH].
  apply bind_nf; [apply cast_schema_nf|]. intros sc _. apply bind_nf; [exact IH|discriminate].
Qed.

Lemma B_le R Z u u' r r' z z' : u' <= u -> r' <= r -> z' <= z -> B R Z u' r' z' <= B R Z u r z.
Proof.
  unfold B. intros Hu Hr Hz.
  pose proof (Nat.mul_le_mono_r u' u (S R * S Z) Hu). pose proof (Nat.mul_le_mono_r r' r (S Z) Hr). lia.
Qed.

Theorem program_terminates P rk R Z rs :
  strat_okb P rk R Z rs = true ->
  forall n, B R Z (U P st0) R Z <= n -> eval_program false P n rs <> Fuel.
Proof.
  unfold strat_okb. intros H n Hn. apply andb_prop in H as [Hds Hrs].
  assert (Hdecl : forall m i d, get_decl P m i = Some d -> decl_sokb P (rank_of rk) R Z m i d = true).
  { intros m i d Hd. exact (all_decls_get P _ m i d Hds Hd). }
  unfold eval_program.
  apply casts_nf with (P := P) (ev := fun s e => eval false P n s e []) (ok := fun x => In x rs) (u := U P st0)
                      (c := fun v => cast_relation (fst v));
    [exact (fun s e => closure P n s e [])| |intros v; apply cast_relation_nf|auto|exact (conj inv_st0 (le_n _))|].
  - intros s x Hx [Hi Hu]. rewrite forallb_forall in Hrs. specialize (Hrs x Hx). unfold expr_okb in Hrs.
    apply andb_prop in Hrs as [Hrs Hfo]. apply andb_prop in Hrs as [Hsz Her]. apply Nat.leb_le in Hsz, Her.
    apply (fuel_ok P (rank_of rk) R Z Hdecl); [exact Hi|exact Hfo|].
    pose proof (B_le R Z (U P st0) (U P s) R (erank P (rank_of rk) x) Z (Strat.size x) Hu Her Hsz). lia.
  - intros s1 rels _. cbn beta iota. apply bind_nf; [apply refs_table_nf|discriminate].
Qed.

Corollary stratified_terminates P rs :
  stratified P rs = true -> exists N, forall n, N <= n -> eval_program false P n rs <> Fuel.
Proof. unfold stratified. intros H. eexists. intros n Hn. eapply program_terminates; eassumption. Qed.

(** the hypothesis is needed: a function that calls itself is not stratified and runs out of
    any fuel (the recursion check rejects it) *)
Definition ex_loop : prog := [[ mk_decl None false [] [7%N] (EApp (EDecl 0 0) [ETerm [] (EBind 7%N)]) ]].   (* let f x = f x; *)
Definition ex_loop_rs : list expr := [ERel (ETerm [] (EUri [inl 30%N] None)) [EXfer [0%N] None (ECont (Some (EApp (EDecl 0 0) [ETerm [] (EPrim 1%N)])) []) None]].
Lemma ex_loop_not_stratified : stratified ex_loop ex_loop_rs = false /\ eval_program false ex_loop 200 ex_loop_rs = Fuel.
Proof. split; vm_compute; reflexivity. Qed.

(** non-vacuity: the recursive example of ClosureProofs is stratified *)
Lemma ex_rec_stratified : stratified ex_rec_P ex_rec_rs = true.
Proof. vm_compute. reflexivity. Qed.

(** * capstone: well-typed stratified programs evaluate to a document, an error or a known panic *)
From Oal Require Typing TypingProofs.

Theorem accepted_programs_evaluate E P rs :
  Typing.wt_progb E P rs = true -> stratified P rs = true ->
  exists N, forall n, N <= n ->
    match eval_program false P n rs with
    | Ok _ | Err _ => True
    | Panic p => TypingProofs.allowed p
    | Fuel => False
    end.
Proof.
  intros Hwt Hst. destruct (stratified_terminates P rs Hst) as [N HN]. exists N. intros n Hn.
  pose proof (HN n Hn) as Hnf. pose proof (TypingProofs.typed_programs E P rs n Hwt) as Hty.
  destruct (eval_program false P n rs); auto.
Qed.

(** * the evaluation of a stratified program is one well-defined result *)
From Oal Require FuelProofs.

Theorem stratified_result P rs :
  stratified P rs = true ->
  exists N r, r <> Fuel /\ forall n, N <= n -> eval_program false P n rs = r.
Proof.
  intros H. destruct (stratified_terminates P rs H) as [N HN].
  exists N, (eval_program false P N rs). split; [apply HN, le_n|].
  intros n Hn. apply (FuelProofs.eval_program_fuel_mono false P N n rs _ eq_refl (HN N (le_n _)) Hn).
Qed.

(** * for well-typed programs the code's evaluation is the lexical evaluation, without exception *)
From Oal Require EvalProofs.
Theorem typed_evaluation_is_lexical E P rs n :
  Typing.wt_progb E P rs = true -> closed_prog P ->
  eval_program false P n rs = eval_program true P n rs.
Proof.
  intros Hwt Hcp. pose proof (TypingProofs.wt_resources_closed E P rs Hwt) as Hrs.
  pose proof (EvalProofs.eval_program_lexical P n rs Hcp Hrs) as Hlex.
  pose proof (TypingProofs.typed_programs_lx E P rs true n Hwt) as Hty.
  destruct (eval_program true P n rs) as [v|e|p|]; try exact Hlex.
  destruct Hlex as [->|Hlex]; [|exact Hlex].
  exfalso. destruct Hty as [H|[H|[H|H]]]; discriminate H.
Qed.
