(** Facts about lists and about a lexicographic measure that do not mention the model; they are
    here because proofs about different parts of the model need them. *)
From Coq Require Import List Arith Lia.
Import ListNotations.

Lemma NoDup_app_intro {A} (a b : list A) :
  NoDup a -> NoDup b -> (forall x, In x a -> ~ In x b) -> NoDup (a ++ b).
Proof.
  induction a as [|x a IH]; intros Ha Hb Hd; [exact Hb|].
  cbn [app]. inversion Ha; subst. constructor.
  - intros C. apply in_app_or in C. destruct C as [C|C]; [contradiction|]. apply (Hd x); [left; reflexivity|exact C].
  - apply IH; [assumption|assumption|]. intros y Hy. apply Hd. right. exact Hy.
Qed.

Lemma filter_len_mono {A} (p q : A -> bool) l :
  (forall x, q x = true -> p x = true) -> length (filter q l) <= length (filter p l).
Proof.
  intros H. induction l as [|x l IH]; cbn [filter]; [lia|].
  destruct (q x) eqn:Eq; [rewrite (H x Eq); cbn [length]; lia|destruct (p x); cbn [length]; lia].
Qed.

Lemma filter_len_le {A} (p : A -> bool) l : length (filter p l) <= length l.
Proof. induction l as [|x l IH]; cbn [filter length]; [lia|]. destruct (p x); cbn [length]; lia. Qed.

Lemma map_snd_combine {A B} (a : list A) : forall b : list B, length a = length b -> map snd (combine a b) = b.
Proof. induction a as [|x a IH]; intros [|y b] H; cbn in *; try reflexivity; try discriminate. f_equal. apply IH. lia. Qed.

Lemma nth_le_max n l : nth n l 0 <= fold_right Nat.max 0 l.
Proof. revert n. induction l as [|x l IH]; intros [|n]; cbn [nth fold_right]; try lia. specialize (IH n). lia. Qed.

Lemma fold_left_invariant {A B} (I : A -> Prop) (Q : B -> Prop) (f : A -> B -> A) l :
  (forall a b, I a -> Q b -> I (f a b)) -> forall a, I a -> Forall Q l -> I (fold_left f l a).
Proof.
  intros Hf. induction l as [|b l IH]; intros a Ha Hl; cbn [fold_left]; [exact Ha|].
  inversion Hl; subst. apply IH; [apply Hf|]; assumption.
Qed.

Lemma fold_left_inv {A B} (I : A -> Prop) (f : A -> B -> A) l :
  (forall a b, I a -> I (f a b)) -> forall a, I a -> I (fold_left f l a).
Proof.
  intros Hf a Ha. apply (fold_left_invariant I (fun _ => True)); [auto|exact Ha|apply Forall_forall; auto].
Qed.

Lemma filter_len_strict {A} (p q : A -> bool) l x :
  (forall y, q y = true -> p y = true) -> In x l -> p x = true -> q x = false ->
  length (filter q l) < length (filter p l).
Proof.
  intros H Hin Hp Hq. apply in_split in Hin as (l1 & l2 & ->).
  rewrite !filter_app, !app_length. cbn [filter]. rewrite Hp, Hq. cbn [length].
  pose proof (filter_len_mono p q l1 H). pose proof (filter_len_mono p q l2 H). lia.
Qed.

Lemma sum_in {A} (f : A -> nat) l x : In x l -> f x <= fold_right (fun y acc => f y + acc) 0 l.
Proof. induction l as [|y l IH]; intros []; cbn [fold_right]; [subst; lia|specialize (IH H); lia]. Qed.

Lemma max_in {A} (f : A -> nat) l x : In x l -> f x <= fold_right (fun y acc => Nat.max (f y) acc) 0 l.
Proof. induction l as [|y l IH]; intros []; cbn [fold_right]; [subst; lia|specialize (IH H); lia]. Qed.

Lemma fold_max_witness {X} (F : X -> nat) l :
  fold_right (fun x acc => Nat.max (F x) acc) 0 l = 0 \/ exists x, In x l /\ fold_right (fun x acc => Nat.max (F x) acc) 0 l = F x.
Proof.
  induction l as [|y l IH]; cbn [fold_right]; [left; reflexivity|].
  destruct (Nat.max_spec (F y) (fold_right (fun x acc => Nat.max (F x) acc) 0 l)) as [[_ E]|[_ E]]; rewrite E.
  - destruct IH as [IH|(x & Hx & IH)]; [left; exact IH|right; exists x; split; [right; exact Hx|exact IH]].
  - right. exists y. split; [left; reflexivity|reflexivity].
Qed.

Lemma forallb_impl {A} (p q : A -> bool) l :
  (forall x, In x l -> p x = true -> q x = true) -> forallb p l = true -> forallb q l = true.
Proof. rewrite !forallb_forall. intros H Hp x Hx. exact (H x Hx (Hp x Hx)). Qed.

(** [lex3 R Z u r z] orders triples [(u, r, z)] with [r <= R] and [z <= Z] lexicographically:
    it decreases when [z] does, when [r] does whatever happens to [z], and when [u] does
    whatever happens to [r] and [z]. The termination proofs of the parser (tokens left, rank of
    the production, size of the expression) and of the evaluator (memoised declarations not yet
    in the table, rank, size) use it with their own [R] and [Z]. *)
Definition lex3 (R Z u r z : nat) : nat := u * (S R * S Z) + r * S Z + z.

Section Lex3.
  Variables R Z : nat.
  Notation B := (lex3 R Z).

  Lemma lex3_size u u' r r' z z' : u' <= u -> r' <= r -> z' < z -> B u' r' z' < B u r z.
  Proof.
    unfold lex3. intros Hu Hr Hz.
    pose proof (Nat.mul_le_mono_r u' u (S R * S Z) Hu). pose proof (Nat.mul_le_mono_r r' r (S Z) Hr). lia.
  Qed.

  Lemma lex3_rank u u' r r' z z' : u' <= u -> r' < r -> z' <= Z -> B u' r' z' < B u r z.
  Proof.
    unfold lex3. intros Hu Hr Hz.
    pose proof (Nat.mul_le_mono_r u' u (S R * S Z) Hu).
    assert (H0 : S r' * S Z <= r * S Z) by (apply Nat.mul_le_mono_r; lia).
    rewrite Nat.mul_succ_l in H0. lia.
  Qed.

  Lemma lex3_cut u u' r r' z z' : u' < u -> r' <= R -> z' <= Z -> B u' r' z' < B u r z.
  Proof.
    unfold lex3. intros Hu Hr Hz.
    assert (H : S u' * (S R * S Z) <= u * (S R * S Z)) by (apply Nat.mul_le_mono_r; lia).
    rewrite Nat.mul_succ_l in H.
    pose proof (Nat.mul_le_mono_r r' R (S Z) Hr).
    assert (S R * S Z = R * S Z + S Z) by (rewrite Nat.mul_succ_l; reflexivity).
    lia.
  Qed.

  Lemma lex3_mono_u u u' r z : u <= u' -> B u r z <= B u' r z.
  Proof. intros H. unfold lex3. apply Nat.add_le_mono_r, Nat.add_le_mono_r, Nat.mul_le_mono_r, H. Qed.
End Lex3.

Lemma skipn_eq_cons {A} (l : list A) : forall s k rest,
  skipn s l = k :: rest <-> skipn (S s) l = rest /\ nth_error l s = Some k.
Proof.
  induction l as [|x l IH]; intros [|s] k rest; cbn [skipn nth_error]; try (split; [|intros []]; discriminate).
  - split; [intros [= -> ->]; auto|intros [-> [= ->]]; reflexivity].
  - apply IH.
Qed.

Lemma firstn_S_nth {A} (l : list A) s k : nth_error l s = Some k -> firstn (S s) l = firstn s l ++ [k].
Proof.
  revert s. induction l as [|x l IH]; intros [|s] H; cbn [nth_error] in H; try discriminate.
  - injection H as ->. reflexivity.
  - change (firstn (S (S s)) (x :: l)) with (x :: firstn (S s) l). rewrite (IH s H). reflexivity.
Qed.
