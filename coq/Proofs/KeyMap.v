(** Evaluation commutes with renaming the keys of the reference table and the positions of the
    declarations: if every @reference name is renamed by an injective [g], every declaration is
    moved to the position (module, index) that an injective [fdm] gives and every rec node to
    the one [frm] gives, the evaluator model computes the same result with the keys and
    positions inside the values renamed accordingly ([eval_km]). Unlike the transformations of
    EvalCong this one changes the values, so it has its own induction, with one commutation
    lemma per cast. Corollaries: renaming an @reference changes nothing but the name of its
    component (C18); moving declarations between modules, and in particular permuting the
    declarations of a module, changes nothing but the keys of implicit components (C05). *)
From Oal Require Import Eval EvalBasics.
From Coq Require Import Lia.
Local Open Scope N_scope.

Section KMap.
  Variable g : str -> str.                 (* on @reference names *)
  Variable fdm : N -> N -> N * N.          (* on the positions (module, index) of declarations *)
  Variable frm : N -> N -> N * N.          (* on the positions (module, node) of rec expressions *)

  Definition fk (k : rkey) : rkey :=
    match k with
    | KNamed x => KNamed (g x)
    | KDecl m i => KDecl (fst (fdm m i)) (snd (fdm m i))
    | KRec m i sc => KRec (fst (frm m i)) (snd (frm m i)) sc
    end.

  Fixpoint km_schema (s : schema) : schema :=
    match s with Schema e d t r x => Schema (km_sexpr e) d t r x end
  with km_sexpr (e : sexpr) : sexpr :=
    match e with
    | SRel r => SRel (km_relation r)
    | SUri u => SUri (km_uri u)
    | SArr i => SArr (km_schema i)
    | SObj ps => SObj (map km_property ps)
    | SOp o ss => SOp o (map km_schema ss)
    | SRef k => SRef (fk k)
    | _ => e
    end
  with km_property (p : property) : property :=
    match p with Prop_ n s d r => Prop_ n (km_schema s) d r end
  with km_uri (u : uri) : uri :=
    match u with
    | Uri path prm ex => Uri (map km_useg path) (match prm with Some ps => Some (map km_property ps) | None => None end) ex
    end
  with km_useg (u : useg) : useg :=
    match u with ULit s => ULit s | UVar p => UVar (km_property p) end
  with km_relation (r : relation) : relation :=
    match r with
    | Rel u xs => Rel (km_uri u) (map (fun o => match o with Some t => Some (km_transfer t) | None => None end) xs)
    end
  with km_transfer (t : transfer) : transfer :=
    match t with
    | Xfer ms dom rg prm d s tags id =>
        Xfer ms (km_content dom) (map (fun kc => match kc with (k, c) => (k, km_content c) end) rg)
             (match prm with Some ps => Some (map km_property ps) | None => None end) d s tags id
    end
  with km_content (c : content) : content :=
    match c with
    | Content s st media hd d ex =>
        Content (match s with Some s' => Some (km_schema s') | None => None end) st media
                (match hd with Some ps => Some (map km_property ps) | None => None end) d ex
    end.

  Definition km_props (ps : list property) : list property := map km_property ps.
  Definition km_ranges (r : ranges) : ranges := map (fun kc : rgkey * content => match kc with (k, c) => (k, km_content c) end) r.

  Fixpoint km_value (v : value) : value :=
    match v with
    | VUri u => VUri (km_uri u)
    | VRel r => VRel (km_relation r)
    | VXfer t => VXfer (km_transfer t)
    | VCont c => VCont (km_content c)
    | VObj ps => VObj (km_props ps)
    | VRanges r => VRanges (km_ranges r)
    | VProp p => VProp (km_property p)
    | VPrim e => VPrim (km_sexpr e)
    | VOp o ss => VOp o (map km_schema ss)
    | VRef k v' a => VRef (fk k) (km_value v') a
    | VArr i => VArr (km_schema i)
    | VLamExt m i => VLamExt (fst (fdm m i)) (snd (fdm m i))
    | VRecur k => VRecur (fk k)
    | _ => v
    end.

  Definition km_aval (va : aval) : aval := (km_value (fst va), snd va).
  Definition km_scope (sc : scope) : scope := map (fun xv : N * aval => (fst xv, km_aval (snd xv))) sc.
  Definition km_scopes (ss : list (N * scope)) : list (N * scope) := map (fun f : N * scope => (fst f, km_scope (snd f))) ss.
  Definition km_refs (r : list (rkey * option aval)) : list (rkey * option aval) :=
    map (fun kv : rkey * option aval => (fk (fst kv), option_map km_aval (snd kv))) r.
  Definition km_st (s : st) : st := mk_st (km_refs (refs s)) (km_scopes (scopes s)) (seq s).

  Definition rmap {A B} (f : A -> B) (r : res A) : res B :=
    match r with Ok a => Ok (f a) | Err e => Err e | Panic p => Panic p | Fuel => Fuel end.

  Lemma km_schema_like v : is_schema_like (km_value v) = is_schema_like v.
  Proof. destruct v; reflexivity. Qed.
  Lemma km_content_like v : is_content_like (km_value v) = is_content_like v.
  Proof. destruct v; reflexivity. Qed.

  Lemma cast_schema_km va : cast_schema (km_aval va) = rmap km_schema (cast_schema va).
  Proof. destruct va as [v a]. destruct v; reflexivity. Qed.

  Lemma bind_rmap {A B C} (f : A -> B) (r : res A) (k : B -> res C) : bind (rmap f r) k = bind r (fun a => k (f a)).
  Proof. destruct r; reflexivity. Qed.
  Lemma rmap_bind {A B C} (f : B -> C) (r : res A) (k : A -> res B) : rmap f (bind r k) = bind r (fun a => rmap f (k a)).
  Proof. destruct r; reflexivity. Qed.

  Lemma cast_content_km va : cast_content (km_aval va) = rmap km_content (cast_content va).
  Proof. destruct va as [v a]. destruct v; reflexivity. Qed.

  Lemma content_key_km c : content_key (km_content c) = content_key c.
  Proof. destruct c; reflexivity. Qed.

  Lemma cast_ranges_km va : cast_ranges (km_aval va) = rmap km_ranges (cast_ranges va).
  Proof.
    destruct va as [v a]. destruct v; try reflexivity.
    unfold cast_ranges, km_aval. cbn [fst km_value is_content_like is_schema_like cast_content bind rmap km_ranges map snd].
    rewrite content_key_km. reflexivity.
  Qed.

  Lemma cast_string_km v : cast_string (km_value v) = cast_string v.
  Proof. induction v; cbn [km_value cast_string]; try reflexivity; assumption. Qed.
  Lemma cast_property_km v : cast_property (km_value v) = rmap km_property (cast_property v).
  Proof. induction v; cbn [km_value cast_property rmap]; try reflexivity; assumption. Qed.
  Lemma cast_http_status_km v : cast_http_status (km_value v) = cast_http_status v.
  Proof. induction v; cbn [km_value cast_http_status]; try reflexivity; assumption. Qed.
  Lemma cast_object_km v : cast_object (km_value v) = rmap km_props (cast_object v).
  Proof. induction v; cbn [km_value cast_object rmap]; try reflexivity; assumption. Qed.
  Lemma cast_transfer_km v : cast_transfer (km_value v) = rmap km_transfer (cast_transfer v).
  Proof. induction v; cbn [km_value cast_transfer rmap]; try reflexivity; assumption. Qed.
  Lemma cast_uri_km v : cast_uri (km_value v) = rmap km_uri (cast_uri v).
  Proof. induction v; cbn [km_value cast_uri rmap]; try reflexivity; try assumption. destruct r; reflexivity. Qed.
  Lemma cast_relation_km v : cast_relation (km_value v) = rmap km_relation (cast_relation v).
  Proof. induction v; cbn [km_value cast_relation rmap]; try reflexivity; assumption. Qed.
  Lemma cast_lambda_km v : cast_lambda (km_value v) = rmap km_value (cast_lambda v).
  Proof. induction v; cbn [km_value cast_lambda rmap]; try reflexivity; assumption. Qed.

  Lemma prim_value_km p a : prim_value p a = rmap km_value (prim_value p a).
  Proof. unfold prim_value. destruct p as [|p]; [reflexivity|]. do 3 (destruct p as [p|p|]; try reflexivity). Qed.

  Lemma km_useg_empty u : useg_is_empty (km_useg u) = useg_is_empty u.
  Proof. destruct u; reflexivity. Qed.

  Lemma uri_append_km l r : uri_append (km_uri l) (km_uri r) = rmap km_uri (uri_append l r).
  Proof.
    destruct l as [lp lprm lex], r as [rp rprm rex]. cbn [km_uri uri_append].
    rewrite <- map_rev. destruct (rev lp) as [|lastseg before] eqn:E; cbn [map rmap]; [reflexivity|].
    rewrite km_useg_empty. destruct (useg_is_empty lastseg); cbn [km_uri]; rewrite map_app; [rewrite map_rev|]; reflexivity.
  Qed.

  Lemma set_required_km p b : set_required (km_property p) b = km_property (set_required p b).
  Proof. destruct p; reflexivity. Qed.

  Lemma set_nth_map {A B} (f : A -> B) n a l : set_nth n (f a) (map f l) = map f (set_nth n a l).
  Proof. revert n. induction l as [|x l IH]; intros [|n]; cbn [set_nth map]; try reflexivity. rewrite IH. reflexivity. Qed.

  Lemma add_xfer_km xs t : add_xfer (map (option_map km_transfer) xs) (km_transfer t) = map (option_map km_transfer) (add_xfer xs t).
  Proof.
    assert (G : forall t bs xs i,
              fst (fold_left (fun '(xs, i) (b : bool) => (if b then set_nth i (Some (km_transfer t)) xs else xs, S i)) bs (map (option_map km_transfer) xs, i)) =
              map (option_map km_transfer) (fst (fold_left (fun '(xs, i) (b : bool) => (if b then set_nth i (Some t) xs else xs, S i)) bs (xs, i)))).
    { intros t0 bs. induction bs as [|b bs IH]; intros xs0 i; cbn [fold_left]; [reflexivity|].
      destruct b; [|apply IH]. rewrite <- IH, <- set_nth_map. reflexivity. }
    destruct t as [ms dom rg prm d s tags id]. exact (G (Xfer ms dom rg prm d s tags id) ms xs O).
  Qed.

  Lemma fold_add_xfer_km ts : forall xs,
    fold_left add_xfer (map km_transfer ts) (map (option_map km_transfer) xs) = map (option_map km_transfer) (fold_left add_xfer ts xs).
  Proof. induction ts as [|t ts IH]; intros xs; cbn [fold_left map]; [reflexivity|]. rewrite add_xfer_km. apply IH. Qed.

  (** ranges: the keys (status, media) are untouched *)
  Lemma im_insert_ranges k c (m : ranges) :
    im_insert rgkey_eqb k (km_content c) (km_ranges m) = km_ranges (im_insert rgkey_eqb k c m).
  Proof. apply (im_insert_map rgkey_eqb rgkey_eqb (fun k => k) km_content); reflexivity. Qed.

  Lemma im_extend_ranges (o : ranges) : forall m : ranges,
    im_extend rgkey_eqb (km_ranges m) (km_ranges o) = km_ranges (im_extend rgkey_eqb m o).
  Proof.
    unfold im_extend. induction o as [|[k c] o IH]; intros m; cbn [fold_left km_ranges map fst snd]; [reflexivity|].
    rewrite im_insert_ranges. apply IH.
  Qed.
  Lemma fold_extend_ranges rs : forall acc : ranges,
    fold_left (im_extend rgkey_eqb) (map km_ranges rs) (km_ranges acc) = km_ranges (fold_left (im_extend rgkey_eqb) rs acc).
  Proof. induction rs as [|r rs IH]; intros acc; cbn [fold_left map]; [reflexivity|]. rewrite im_extend_ranges. apply IH. Qed.

  Hypothesis g_inj : forall x y, g x = g y -> x = y.
  Hypothesis fdm_inj : forall m i m' i', fdm m i = fdm m' i' -> m = m' /\ i = i'.
  Hypothesis frm_inj : forall m i m' i', frm m i = frm m' i' -> m = m' /\ i = i'.

  Lemma map_eqb (f : N -> N -> N * N) : (forall m i m' i', f m i = f m' i' -> m = m' /\ i = i') -> forall m i m' i',
    N.eqb (fst (f m i)) (fst (f m' i')) && N.eqb (snd (f m i)) (snd (f m' i')) = N.eqb m m' && N.eqb i i'.
  Proof.
    intros Hinj m i m' i'. apply eq_true_iff_eq. rewrite !andb_true_iff, !N.eqb_eq. split.
    - intros [H1 H2]. apply Hinj, injective_projections; assumption.
    - intros [-> ->]. split; reflexivity.
  Qed.

  Lemma fk_eqb a b : rkey_eqb (fk a) (fk b) = rkey_eqb a b.
  Proof.
    destruct a as [x|m i|m i sc], b as [y|m' i'|m' i' sc']; cbn [fk rkey_eqb]; try reflexivity.
    - apply (eqb_inj g g_inj).
    - apply (map_eqb fdm fdm_inj).
    - rewrite (map_eqb frm frm_inj). reflexivity.
  Qed.

  Lemma rget_km k r : rget (fk k) (km_refs r) = option_map (option_map km_aval) (rget k r).
  Proof. apply (im_get_map rkey_eqb rkey_eqb fk (option_map km_aval)); [reflexivity|exact fk_eqb]. Qed.

  Lemma rinsert_km k v r : rinsert (fk k) (option_map km_aval v) (km_refs r) = km_refs (rinsert k v r).
  Proof. apply (im_insert_map rkey_eqb rkey_eqb fk (option_map km_aval)); [reflexivity|exact fk_eqb]. Qed.

  (* [v'] stands for [None] or [Some (km_aval x)], which [option_map km_aval v] reduces to but is not *)
  Lemma set_ref_km s k v v' : v' = option_map km_aval v ->
    set_refs (km_st s) (rinsert (fk k) v' (refs (km_st s))) = km_st (set_refs s (rinsert k v (refs s))).
  Proof. intros ->. unfold set_refs, km_st. cbn [refs scopes seq]. rewrite rinsert_km. reflexivity. Qed.

  Lemma im_get_scope x sc : im_get N.eqb x (km_scope sc) = option_map km_aval (im_get N.eqb x sc).
  Proof. apply (im_get_map N.eqb N.eqb (fun x => x) km_aval); reflexivity. Qed.

  Lemma im_insert_scope x v sc : im_insert N.eqb x (km_aval v) (km_scope sc) = km_scope (im_insert N.eqb x v sc).
  Proof. apply (im_insert_map N.eqb N.eqb (fun x => x) km_aval); reflexivity. Qed.

  Lemma lookup_km x ss : lookup_binding x (km_scopes ss) = option_map km_aval (lookup_binding x ss).
  Proof.
    induction ss as [|[id sc] ss IH]; cbn [km_scopes map lookup_binding fst snd]; [reflexivity|].
    rewrite im_get_scope. destruct (im_get N.eqb x sc); [reflexivity|exact IH].
  Qed.

  Lemma top_scope_km s : top_scope_id (km_st s) = top_scope_id s.
  Proof. unfold top_scope_id. destruct s as [r [|[id sc] ss] q]; reflexivity. Qed.

  Lemma pop_scope_km s : pop_scope (km_st s) = km_st (pop_scope s).
  Proof. destruct s as [r [|f ss] q]; reflexivity. Qed.

  Fixpoint km_expr (e : expr) : expr :=
    match e with
    | ETerm anns e' => ETerm anns (km_expr e')
    | ESub e' => ESub (km_expr e')
    | EPrim p => EPrim p
    | ELitStr x => ELitStr x
    | ELitNum x => ELitNum x
    | ELitStat x => ELitStat x
    | EDecl m i => EDecl (fst (fdm m i)) (snd (fdm m i))
    | EConcat => EConcat
    | EBind x => EBind x
    | EApp f args => EApp (km_expr f) (map km_expr args)
    | ERec m i x e' => ERec (fst (frm m i)) (snd (frm m i)) x (km_expr e')
    | EObj ps => EObj (map km_expr ps)
    | EProp name req e' => EProp name req (km_expr e')
    | EUnary b e' => EUnary b (km_expr e')
    | EArr e' => EArr (km_expr e')
    | EOp op es => EOp op (map km_expr es)
    | ECont body metas =>
        ECont (option_map km_expr body) (map (fun ke => match ke with (k, e') => (k, km_expr e') end) metas)
    | EXfer ms dom rg prm => EXfer ms (option_map km_expr dom) (km_expr rg) (option_map km_expr prm)
    | EUri segs prm =>
        EUri (map (fun sg => match sg with inl x => inl x | inr e' => inr (km_expr e') end) segs) (option_map km_expr prm)
    | ERel u xs => ERel (km_expr u) (map km_expr xs)
    end.

  Definition km_decl (d : decl) : decl :=
    mk_decl (option_map g (d_ref d)) (d_rec d) (d_anns d) (d_params d) (km_expr (d_rhs d)).

  Definition kres {B} (h : B -> B) (r : res (st * B)) : res (st * B) := rmap (fun sb => (km_st (fst sb), h (snd sb))) r.

  (** sequencing: a step that threads the state, a cast whose result is mapped, a pure step *)
  Lemma kres_bind {B C} (h : B -> B) (h' : C -> C) (r r' : res (st * B)) (k k' : st * B -> res (st * C)) :
    r' = kres h r -> (forall s b, k' (km_st s, h b) = kres h' (k (s, b))) -> bind r' k' = kres h' (bind r k).
  Proof. intros -> H. destruct r as [[s b]| | |]; [apply H|reflexivity..]. Qed.

  Lemma kres_cast {A C} (f : A -> A) (h' : C -> C) (c c' : res A) (k k' : A -> res (st * C)) :
    c' = rmap f c -> (forall x, k' (f x) = kres h' (k x)) -> bind c' k' = kres h' (bind c k).
  Proof. intros -> H. destruct c; [apply H|reflexivity..]. Qed.

  Lemma kres_pure {A C} (h' : C -> C) (c : res A) (k k' : A -> res (st * C)) :
    (forall x, k' x = kres h' (k x)) -> bind c k' = kres h' (bind c k).
  Proof. intros H. destruct c; [apply H|reflexivity..]. Qed.

  (* the match on the applied value: [km_value] keeps the constructor and moves the position of
     a declared function *)
  Lemma lam_case_km {A B} (Q : A -> B -> Prop) lam f d f' d' :
    (forall m i, Q (f m i) (f' (fst (fdm m i)) (snd (fdm m i)))) -> Q d d' ->
    Q (match lam with VLamExt m i => f m i | _ => d end) (match km_value lam with VLamExt m i => f' m i | _ => d' end).
  Proof. intros Hf Hd. destruct lam; cbn [km_value]; auto. Qed.

  Section Lists.
    Context {X B : Type}.
    Variable em : X -> X.
    Variable h : B -> B.
    Variables f f' : st -> X -> res (st * B).
    Hypothesis Hf : forall s x, f' (km_st s) (em x) = kres h (f s x).

    Lemma map_st_km l : forall s, map_st f' (km_st s) (map em l) = kres (map h) (map_st f s l).
    Proof.
      induction l as [|x l IH]; intros s; cbn [map map_st]; [reflexivity|].
      eapply kres_bind; [apply Hf|]. intros s1 b. eapply kres_bind; [apply IH|]. reflexivity.
    Qed.

    Lemma opt_st_km o s : opt_st f' (km_st s) (option_map em o) = kres (option_map h) (opt_st f s o).
    Proof.
      destruct o as [x|]; cbn [option_map opt_st]; [|reflexivity].
      eapply kres_bind; [apply Hf|]. reflexivity.
    Qed.
  End Lists.

  Definition km_acc (acc : meta_acc) : meta_acc :=
    match acc with (status, media, headers) => (status, media, option_map km_props headers) end.

  Section ArgsKm.
    Variables ev ev' : st -> expr -> res (st * aval).
    Hypothesis Hev : forall s e, ev' (km_st s) (km_expr e) = kres km_aval (ev s e).

    Lemma bind_args_km args : forall s ps sc,
      bind_args ev' (km_st s) ps (map km_expr args) (km_scope sc) = kres km_scope (bind_args ev s ps args sc).
    Proof.
      induction args as [|a args IH]; intros s ps sc; [destruct ps; reflexivity|].
      destruct ps as [|p ps]; [reflexivity|]. cbn [map bind_args].
      eapply kres_bind; [apply Hev|]. intros s1 v. rewrite im_insert_scope. apply IH.
    Qed.

    Lemma eval_metas_km ms : forall s acc,
      eval_metas ev' (km_st s) (map (on_meta km_expr) ms) (km_acc acc) = kres km_acc (eval_metas ev s ms acc).
    Proof.
      induction ms as [|[k rhs] ms IH]; intros s acc; cbn [map on_meta eval_metas]; [reflexivity|].
      eapply kres_bind; [apply Hev|]. intros s1 v. destruct acc as [[status media] headers]. cbn [km_acc km_aval fst].
      (* the kind of the meta, as [eval_metas] tests it: 0 media; 2p+1 and 2p, that is any other but 1, status; 1 headers *)
      destruct k as [|[p|p|]].
      - rewrite cast_string_km. apply kres_pure. intros x. apply (IH s1 (status, Some x, headers)).
      - rewrite cast_http_status_km. apply kres_pure. intros x. apply (IH s1 (Some x, media, headers)).
      - rewrite cast_http_status_km. apply kres_pure. intros x. apply (IH s1 (Some x, media, headers)).
      - eapply kres_cast; [apply cast_object_km|]. intros x. apply (IH s1 (status, media, Some x)).
    Qed.

    Lemma app_builtin_km s args a :
      app_builtin ev' (km_st s) (map km_expr args) a = kres km_aval (app_builtin ev s args a).
    Proof.
      unfold app_builtin. eapply kres_bind; [apply (map_st_km km_expr km_aval ev ev' Hev)|]. intros s2 vs.
      destruct vs as [|va1 [|va2 [|va3 vs]]]; try reflexivity. cbn [map].
      eapply kres_cast; [apply cast_uri_km|]. intros ru. eapply kres_cast; [apply cast_uri_km|]. intros lu.
      eapply kres_cast; [apply uri_append_km|]. reflexivity.
    Qed.
  End ArgsKm.

  Variable lx : bool.
  Variables P P' : prog.
  Hypothesis HP' : forall m i, get_decl P' (fst (fdm m i)) (snd (fdm m i)) = option_map km_decl (get_decl P m i).

  (** one step of the evaluator, given that the recursive calls commute *)
  Section Step.
    Variables ev ev' : st -> expr -> ymap -> res (st * aval).
    Hypothesis Hev : forall s e a, ev' (km_st s) (km_expr e) a = kres km_aval (ev s e a).

    Lemma cast_km {B} (h : B -> B) {c c' : aval -> res B} : (forall v, c' (km_aval v) = rmap h (c v)) -> forall s e,
      (do (s', v) <- ev' (km_st s) (km_expr e) []; do x <- c' v; Ok (s', x)) =
      kres h (do (s', v) <- ev s e []; do x <- c v; Ok (s', x)).
    Proof. intros Hc s e. eapply kres_bind; [apply Hev|]. intros s1 v. eapply kres_cast; [apply Hc|]. reflexivity. Qed.

    Lemma decl_km s m i a :
      eval_step lx P' ev' (km_st s) (EDecl (fst (fdm m i)) (snd (fdm m i))) a = kres km_aval (eval_step lx P ev s (EDecl m i) a).
    Proof.
      cbn [eval_step]. rewrite HP'. destruct (get_decl P m i) as [d|]; [|reflexivity].
      cbn [option_map km_decl d_params d_anns d_ref d_rec d_rhs].
      destruct (d_params d); [|reflexivity].
      apply kres_pure. intros da.
      assert (Ecut : (match option_map g (d_ref d) with Some _ => true | None => false end) = (match d_ref d with Some _ => true | None => false end))
        by (destruct (d_ref d); reflexivity).
      rewrite Ecut. destruct ((match d_ref d with Some _ => true | None => false end) || d_rec d); [|apply Hev].
      assert (Ekey : decl_key (km_decl d) (fst (fdm m i)) (snd (fdm m i)) = fk (decl_key d m i))
        by (unfold decl_key; cbn [km_decl d_ref]; destruct (d_ref d); reflexivity).
      rewrite Ekey. set (key := decl_key d m i).
      change (refs (km_st s)) with (km_refs (refs s)) at 1. rewrite rget_km.
      destruct (rget key (refs s)) as [[v|]|]; cbn [option_map]; try reflexivity.
      rewrite (set_ref_km s key None None eq_refl). eapply kres_bind; [apply Hev|]. intros s2 v. cbn [kres rmap fst snd].
      rewrite <- (set_ref_km s2 key (Some v) _ eq_refl). reflexivity.
    Qed.

    Lemma app_km s f args a :
      eval_step lx P' ev' (km_st s) (EApp (km_expr f) (map km_expr args)) a = kres km_aval (eval_step lx P ev s (EApp f args) a).
    Proof.
      cbn [eval_step].
      eapply kres_bind; [apply Hev|]. intros s1 fv. eapply kres_cast; [apply cast_lambda_km|]. intros lam.
      apply (lam_case_km (fun r r' => r' = kres km_aval r)); [|apply app_builtin_km; intros; apply Hev].
      intros m i. rewrite HP'. destruct (get_decl P m i) as [d|]; [|reflexivity].
      cbn [option_map km_decl d_params d_anns d_ref d_rec d_rhs].
      eapply kres_bind; [apply (bind_args_km _ _ (fun s0 e0 => Hev s0 e0 []) args s1 (d_params d) [])|]. intros s2 sc.
      apply kres_pure. intros da. destruct lx.
      - rewrite map_length. destruct (Nat.ltb _ _); [reflexivity|].
        eapply kres_bind; [exact (Hev (mk_st (refs s2) [(seq s2 + 1, sc)] (seq s2 + 1)) _ _)|]. reflexivity.
      - eapply kres_bind; [exact (Hev (push_scope s2 sc) _ _)|]. intros s3 r. cbn [kres rmap fst snd]. rewrite <- pop_scope_km. reflexivity.
    Qed.

    Lemma rec_km s m i x e a :
      eval_step lx P' ev' (km_st s) (ERec (fst (frm m i)) (snd (frm m i)) x (km_expr e)) a = kres km_aval (eval_step lx P ev s (ERec m i x e) a).
    Proof.
      cbn [eval_step]. rewrite top_scope_km.
      eapply kres_bind; [exact (Hev (push_scope s [(x, (VRecur (KRec m i (top_scope_id s)), []))]) e a)|]. intros s1 rhs.
      cbn [kres rmap fst snd]. rewrite <- (set_ref_km (pop_scope s1) (KRec m i (top_scope_id s)) (Some rhs) _ eq_refl), pop_scope_km. reflexivity.
    Qed.

    Lemma step_km s e a : eval_step lx P' ev' (km_st s) (km_expr e) a = kres km_aval (eval_step lx P ev s e a).
    Proof.
      destruct e; cbn [km_expr]; try reflexivity; try (cbn [eval_step]).
      - (* ETerm *) apply kres_pure. intros x. apply Hev.
      - (* ESub *) apply Hev.
      - (* EPrim *) eapply kres_cast; [apply prim_value_km|]. reflexivity.
      - apply decl_km.
      - (* EBind *)
        change (scopes (km_st s)) with (km_scopes (scopes s)). rewrite lookup_km.
        destruct (lookup_binding x (scopes s)) as [[v prev]|]; reflexivity.
      - apply app_km.
      - apply rec_km.
      - (* EObj *)
        eapply kres_bind; [apply map_st_km, (cast_km km_property); intros v; apply cast_property_km|]. reflexivity.
      - (* EProp *)
        eapply kres_bind; [apply Hev|]. intros s1 v. eapply kres_cast; [apply cast_schema_km|]. reflexivity.
      - (* EUnary *)
        eapply kres_bind; [apply Hev|]. intros s1 v. eapply kres_cast; [apply cast_property_km|]. intros p.
        exact (f_equal (fun q => Ok (km_st s1, (VProp q, a))) (set_required_km p required)).
      - (* EArr *)
        eapply kres_bind; [apply Hev|]. intros s1 v. eapply kres_cast; [apply cast_schema_km|]. reflexivity.
      - (* EOp *)
        destruct (N.eqb op 3).
        + eapply kres_bind; [apply map_st_km, (cast_km km_ranges), cast_ranges_km|]. intros s1 rs.
          exact (f_equal (fun r => Ok (km_st s1, (VRanges r, a))) (fold_extend_ranges rs [])).
        + destruct (vop_of op) as [vo|]; [|reflexivity].
          eapply kres_bind; [apply map_st_km, (cast_km km_schema), cast_schema_km|]. reflexivity.
      - (* ECont *)
        eapply kres_bind; [apply opt_st_km, (cast_km km_schema), cast_schema_km|]. intros s1 schema.
        destruct schema as [sc|]; cbn [option_map];
          (eapply kres_bind; [apply (eval_metas_km _ _ (fun s0 e0 => Hev s0 e0 []) metas s1 (_, None, None))|]);
          intros s2 [[status media] headers]; reflexivity.
      - (* EXfer *)
        eapply kres_bind; [apply opt_st_km, (cast_km km_content), cast_content_km|]. intros s1 dom.
        eapply kres_bind; [apply Hev|]. intros s2 rv. eapply kres_cast; [apply cast_ranges_km|]. intros rg.
        eapply kres_bind; [apply opt_st_km, (cast_km km_props); intros v; apply cast_object_km|]. intros s3 prm.
        destruct dom, prm; reflexivity.
      - (* EUri *)
        eapply kres_bind.
        + apply (map_st_km (on_seg km_expr) km_useg). intros s0 [x|v]; [reflexivity|].
          eapply kres_bind; [apply Hev|]. intros s1 pv. eapply kres_cast; [apply cast_property_km|]. reflexivity.
        + intros s1 path. eapply kres_bind; [apply opt_st_km, (cast_km km_props); intros v; apply cast_object_km|]. intros s2 prm.
          destruct prm; reflexivity.
      - (* ERel *)
        eapply kres_bind; [apply Hev|]. intros s1 uv. eapply kres_cast; [apply cast_uri_km|]. intros ur.
        eapply kres_bind; [apply map_st_km, (cast_km km_transfer); intros v; apply cast_transfer_km|]. intros s2 ts.
        exact (f_equal (fun xs => Ok (km_st s2, (VRel (Rel (km_uri ur) xs), a))) (fold_add_xfer_km ts no_xfers)).
    Qed.
  End Step.

  Theorem eval_km : forall n s e a, eval lx P' n (km_st s) (km_expr e) a = kres km_aval (eval lx P n s e a).
  Proof. induction n as [|n IH]; intros s e a; [reflexivity|]. rewrite !eval_S. apply step_km, IH. Qed.

  Definition km_table (t : list (rkey * schema)) : list (rkey * schema) := map (fun ks : rkey * schema => (fk (fst ks), km_schema (snd ks))) t.
  Definition km_result (r : list relation * list (rkey * schema)) : list relation * list (rkey * schema) :=
    (map km_relation (fst r), km_table (snd r)).

  Lemma refs_table_km r : refs_table (km_refs r) = rmap km_table (refs_table r).
  Proof.
    induction r as [|[k [v|]] r IH]; cbn [km_refs map refs_table fst snd option_map]; [reflexivity| |exact IH].
    rewrite cast_schema_km. destruct (cast_schema v) as [sc| | |]; cbn [rmap bind]; try reflexivity.
    fold (km_refs r). rewrite IH. destruct (refs_table r); reflexivity.
  Qed.

  Theorem eval_program_km n rs : eval_program lx P' n (map km_expr rs) = rmap km_result (eval_program lx P n rs).
  Proof.
    unfold eval_program. change st0 with (km_st st0) at 1.
    rewrite (map_st_km km_expr km_relation _ _ (cast_km _ _ (eval_km n) km_relation (fun v => cast_relation_km (fst v)))).
    destruct (map_st _ st0 rs) as [[s1 rels]| | |]; cbn [kres rmap bind fst snd]; try reflexivity.
    change (refs (km_st s1)) with (km_refs (refs s1)). rewrite refs_table_km. destruct (refs_table (refs s1)); reflexivity.
  Qed.
End KMap.

(** * renaming @references (C18) *)
Definition idp (m i : N) : N * N := (m, i).
Lemma idp_inj m i m' i' : idp m i = idp m' i' -> m = m' /\ i = i'.
Proof. unfold idp. intros [= -> ->]. split; reflexivity. Qed.

Lemma km_expr_id e : km_expr idp idp e = e.
Proof.
  induction e as [e IH] using expr_subs_ind.
  transitivity (emap (km_expr idp idp) e); [destruct e; reflexivity|].
  rewrite (emap_ext _ (fun x => x) e IH). apply emap_id.
Qed.

Section RenameRefs.
  Variable g : str -> str.
  Hypothesis g_inj : forall x y, g x = g y -> x = y.

  (** the program with every @reference name [x] written [g x]; uses are resolved, so only declarations change *)
  Definition rename_refs (P : prog) : prog := map (map (km_decl g idp idp)) P.

  Theorem rename_reference_keeps_document lx P n rs :
    eval_program lx (rename_refs P) n rs = rmap (km_result g idp idp) (eval_program lx P n rs).
  Proof.
    rewrite <- (eval_program_km g idp idp g_inj idp_inj idp_inj lx P (rename_refs P) (get_decl_map_decl (km_decl g idp idp) P) n rs).
    f_equal. symmetry. rewrite <- (map_id rs) at 2. apply map_ext. intros x. apply km_expr_id.
  Qed.
End RenameRefs.

(** * moving declarations: to other positions of their module, or to other modules (C05) *)
Definition ids (x : str) : str := x.

Section Move.
  Variables fdm frm : N -> N -> N * N.
  Hypothesis fdm_inj : forall m i m' i', fdm m i = fdm m' i' -> m = m' /\ i = i'.
  Hypothesis frm_inj : forall m i m' i', frm m i = frm m' i' -> m = m' /\ i = i'.

  (** [P'] is [P] with every declaration moved to the position [fdm] gives (possibly in another
      module), every use re-addressed, and the rec expressions renumbered by [frm] *)
  Definition moved (P P' : prog) : Prop :=
    forall m i, get_decl P' (fst (fdm m i)) (snd (fdm m i)) = option_map (km_decl ids fdm frm) (get_decl P m i).

  Theorem moving_declarations_is_free lx P P' n rs : moved P P' ->
    eval_program lx P' n (map (km_expr fdm frm) rs) = rmap (km_result ids fdm frm) (eval_program lx P n rs).
  Proof. intros H. exact (eval_program_km ids fdm frm (fun x y E => E) fdm_inj frm_inj lx P P' H n rs). Qed.
End Move.

Section Permute.
  Variable fd : N -> N -> N.
  Hypothesis fd_inj : forall m i j, fd m i = fd m j -> i = j.
  Definition within (m i : N) : N * N := (m, fd m i).

  Lemma within_inj m i m' i' : within m i = within m' i' -> m = m' /\ i = i'.
  Proof. unfold within. intros [= -> H]. split; [reflexivity|]. apply (fd_inj m'), H. Qed.

  Definition permuted (P P' : prog) : Prop := moved within idp P P'.

  Theorem declaration_order_is_free lx P P' n rs : permuted P P' ->
    eval_program lx P' n (map (km_expr within idp) rs) = rmap (km_result ids within idp) (eval_program lx P n rs).
  Proof. apply (moving_declarations_is_free within idp within_inj idp_inj). Qed.
End Permute.

Lemma left_inverse_inj {A B} (f : A -> B) (f' : B -> A) : (forall x, f' (f x) = x) -> forall x y, f x = f y -> x = y.
Proof. intros H x y E. rewrite <- (H x), <- (H y), E. reflexivity. Qed.

Lemma transpose_twice (a b x : N) :
  let t := fun y => if N.eqb y a then b else if N.eqb y b then a else y in t (t x) = x.
Proof.
  intros t. unfold t.
  destruct (N.eqb x a) eqn:Ea; [apply N.eqb_eq in Ea as ->|].
  - rewrite N.eqb_refl. destruct (N.eqb_spec b a); [congruence|reflexivity].
  - destruct (N.eqb x b) eqn:Eb; [apply N.eqb_eq in Eb as ->; rewrite N.eqb_refl; reflexivity|].
    rewrite Ea, Eb. reflexivity.
Qed.

(** * non-vacuity

    Identifiers and strings are interned numbers (5, 6: @reference names; 7: a binder; 20 to 22:
    property names; 30: a path segment); the fuel 50 is more than any of these evaluations uses. *)
(** [let @a = { 'p num }; res /x on get -> <@a>;] and the same with the reference renamed *)
Example ex_ref_P : prog := [[ mk_decl (Some 5) false [] [] (EObj [EProp 20 None (ETerm [] (EPrim 2))]) ]].
Example ex_ref_rs : list expr :=
  [ERel (ETerm [] (EUri [inl 30] None)) [EXfer [0] None (ECont (Some (ETerm [] (EDecl 0 0))) []) None]].
Definition swap56 (x : str) : str := if N.eqb x 5 then 6 else if N.eqb x 6 then 5 else x.
Lemma swap56_inj x y : swap56 x = swap56 y -> x = y.
Proof. apply (left_inverse_inj swap56 swap56). intros z. apply (transpose_twice 5 6). Qed.
Example ex_rename_reference :
  rename_refs swap56 ex_ref_P <> ex_ref_P /\
  exists rels sc sc',
    eval_program false ex_ref_P 50 ex_ref_rs = Ok (rels, [(KNamed 5, sc)]) /\
    eval_program false (rename_refs swap56 ex_ref_P) 50 ex_ref_rs = Ok (map (km_relation swap56 idp idp) rels, [(KNamed 6, sc')]).
Proof. split; [discriminate|]. eexists _, _, _. split; vm_compute; reflexivity. Qed.

(** [let t = { 'p num }; let f x = { 'q x, 'r t }; res /a on get -> <f t>;] and the two declarations swapped *)
Example ex_perm_P : prog :=
  [[ mk_decl None false [] [] (EObj [EProp 20 None (ETerm [] (EPrim 2))]);
     mk_decl None false [] [7] (EObj [EProp 21 None (ETerm [] (EBind 7)); EProp 22 None (ETerm [] (EDecl 0 0))]) ]].
Example ex_perm_P' : prog :=
  [[ mk_decl None false [] [7] (EObj [EProp 21 None (ETerm [] (EBind 7)); EProp 22 None (ETerm [] (EDecl 0 1))]);
     mk_decl None false [] [] (EObj [EProp 20 None (ETerm [] (EPrim 2))]) ]].
Example ex_perm_rs : list expr :=
  [ERel (ETerm [] (EUri [inl 30] None)) [EXfer [0] None (ECont (Some (EApp (EDecl 0 1) [ETerm [] (EDecl 0 0)])) []) None]].
Definition swap01 (m i : N) : N := if N.eqb i 0 then 1 else if N.eqb i 1 then 0 else i.
Lemma swap01_inj m i j : swap01 m i = swap01 m j -> i = j.
Proof. apply (left_inverse_inj (swap01 m) (swap01 m)). intros z. apply (transpose_twice 0 1). Qed.

Lemma get_decl_short (P : prog) m i : (length P <= N.to_nat m)%nat -> get_decl P m i = None.
Proof. intros H. unfold get_decl. rewrite (proj2 (nth_error_None P (N.to_nat m)) H). reflexivity. Qed.
Lemma get_decl_short_row (P : prog) m i ds : nth_error P (N.to_nat m) = Some ds -> (length ds <= N.to_nat i)%nat -> get_decl P m i = None.
Proof. intros H Hi. unfold get_decl. rewrite H. apply nth_error_None, Hi. Qed.

Lemma ex_permuted : permuted swap01 ex_perm_P ex_perm_P'.
Proof.
  intros m i. unfold within, swap01. cbn [fst snd].
  destruct (N.eqb_spec m 0) as [->|Hm].
  - destruct (N.eqb_spec i 0) as [->|Hi0]; [reflexivity|]. destruct (N.eqb_spec i 1) as [->|Hi1]; [reflexivity|].
    rewrite (get_decl_short_row ex_perm_P 0 i _ eq_refl), (get_decl_short_row ex_perm_P' 0 i _ eq_refl) by (cbn; lia). reflexivity.
  - rewrite (get_decl_short ex_perm_P m), (get_decl_short ex_perm_P' m) by (cbn; lia). reflexivity.
Qed.
Example ex_permute_declarations :
  ex_perm_P' <> ex_perm_P /\
  exists r, eval_program false ex_perm_P 50 ex_perm_rs = Ok r /\
            eval_program false ex_perm_P' 50 (map (km_expr (within swap01) idp) ex_perm_rs) = Ok (km_result ids (within swap01) idp r).
Proof. split; [discriminate|]. eexists. split; vm_compute; reflexivity. Qed.

(** [let t = { 'p num }; let f x = { 'q x, 'r t }; res /a on get -> <f t>;] and the same with [t]
    moved into a second module *)
Example ex_move_P' : prog :=
  [[ mk_decl None false [] [7] (EObj [EProp 21 None (ETerm [] (EBind 7)); EProp 22 None (ETerm [] (EDecl 1 0))]) ];
   [ mk_decl None false [] [] (EObj [EProp 20 None (ETerm [] (EPrim 2))]) ]].
(** the three-cycle (0,0) -> (1,0) -> (0,1) -> (0,0) on positions; every other position stays *)
Definition rot (m i : N) : N * N :=
  if N.eqb m 0 && N.eqb i 0 then (1, 0) else if N.eqb m 1 && N.eqb i 0 then (0, 1) else if N.eqb m 0 && N.eqb i 1 then (0, 0) else (m, i).

(* the tests against 0 and 1 are decided by the binary form of a number: 0, 1, 2p, 2p+1 *)
Lemma rot_thrice p : let r := fun q => rot (fst q) (snd q) in r (r (r p)) = p.
Proof. destruct p as [[|[m|m|]] [|[i|i|]]]; reflexivity. Qed.

Lemma rot_inj m i m' i' : rot m i = rot m' i' -> m = m' /\ i = i'.
Proof.
  intros E. pose (r := fun q => rot (fst q) (snd q)).
  assert (H := left_inverse_inj r (fun q => r (r q)) rot_thrice (m, i) (m', i') E).
  injection H as -> ->. split; reflexivity.
Qed.

Lemma ex_moved : moved rot idp ex_perm_P ex_move_P'.
Proof.
  intros m i. unfold rot, idp. cbn [fst snd].
  destruct (N.eqb_spec m 0) as [->|Hm0]; cbn [andb].
  - destruct (N.eqb_spec i 0) as [->|Hi0]; [reflexivity|]. destruct (N.eqb_spec i 1) as [->|Hi1]; [reflexivity|].
    cbn [N.eqb andb fst snd].
    rewrite (get_decl_short_row ex_perm_P 0 i _ eq_refl), (get_decl_short_row ex_move_P' 0 i _ eq_refl) by (cbn; lia). reflexivity.
  - destruct (N.eqb_spec m 1) as [->|Hm1]; cbn [andb fst snd].
    + destruct (N.eqb_spec i 0) as [->|Hi0]; [reflexivity|]. cbn [fst snd].
      rewrite (get_decl_short ex_perm_P 1 i), (get_decl_short_row ex_move_P' 1 i _ eq_refl) by (cbn; lia). reflexivity.
    + rewrite (get_decl_short ex_perm_P m i), (get_decl_short ex_move_P' m i) by (cbn; lia). reflexivity.
Qed.

Example ex_move_declarations :
  exists r, eval_program false ex_perm_P 50 ex_perm_rs = Ok r /\
            eval_program false ex_move_P' 50 (map (km_expr rot idp) ex_perm_rs) = Ok (km_result ids rot idp r).
Proof. eexists. split; vm_compute; reflexivity. Qed.
