(** The glue of the command line tool (Model/Cli.v, property C13), over an abstract pipeline,
    base parser, serialiser and file system: a failing run writes nothing, a successful run
    writes the document to the target and nothing else, and the option target wins over the
    configuration file. *)
From Oal Require Import Cli.

Section Glue.
Variable Doc Spec Base : Type.
Variable load_eval : fsys -> path -> option Spec.
Variable parse_base : bytes -> option Base.
Variable emit : Spec -> option Base -> Doc.
Variable to_yaml : Doc -> option bytes.
Variable writable : fsys -> path -> bool.

Notation run := (Cli.run Doc Spec Base load_eval parse_base emit to_yaml writable).

Theorem failure_leaves_fs cfg fs fs' : run cfg fs = (Failure, fs') -> fs' = fs.
Proof.
  unfold Cli.run. destruct (c_main cfg) as [m|], (c_target cfg) as [t|]; try congruence.
  destruct (load_eval fs m); [|congruence].
  destruct (match c_base cfg with Some _ => _ | None => _ end); [|congruence].
  destruct (to_yaml _); [|congruence]. destruct (writable fs t); congruence.
Qed.

(** success means: exactly the target was written, with the complete serialised document of
    the program (and base) read from the file system before the write *)
Theorem success_writes_document cfg fs fs' : run cfg fs = (Success, fs') ->
  exists m t spec ob y,
    c_main cfg = Some m /\ c_target cfg = Some t /\ load_eval fs m = Some spec /\
    to_yaml (emit spec ob) = Some y /\ fs' = fs_write t y fs /\
    match c_base cfg with
    | None => ob = None
    | Some b => exists raw x, fs b = Some raw /\ parse_base raw = Some x /\ ob = Some x
    end.
Proof.
  unfold Cli.run. destruct (c_main cfg) as [m|], (c_target cfg) as [t|]; try discriminate.
  destruct (load_eval fs m) as [spec|] eqn:El; [|discriminate].
  destruct (match c_base cfg with Some _ => _ | None => _ end) as [ob|] eqn:Eb; [|discriminate].
  destruct (to_yaml (emit spec ob)) as [y|] eqn:Ey; [|discriminate].
  destruct (writable fs t); [|discriminate]. intros H. inversion H; subst.
  exists m, t, spec, ob, y. repeat split; try assumption.
  destruct (c_base cfg) as [b|]; [|congruence].
  destruct (fs b) as [raw|]; [|discriminate]. destruct (parse_base raw) as [x|] eqn:Ep; [|discriminate].
  exists raw, x. inversion Eb. auto.
Qed.

Theorem other_files_untouched cfg fs e fs' q : run cfg fs = (e, fs') -> c_target cfg <> Some q -> fs' q = fs q.
Proof.
  intros H Hq. destruct e.
  - destruct (success_writes_document _ _ _ H) as (m & t & spec & ob & y & _ & Ht & _ & _ & -> & _).
    unfold fs_write. destruct (N.eqb_spec q t) as [->|]; [congruence|reflexivity].
  - rewrite (failure_leaves_fs _ _ _ H). reflexivity.
Qed.

(** CLI and playground agree on import-free sources without base: both fail, or the bytes
    written are the bytes returned *)
Theorem cli_wasm_agree (load_eval1 : bytes -> option Spec) m t src fs :
  fs m = Some src -> load_eval fs m = load_eval1 src -> writable fs t = true ->
  match Cli.wasm Doc Spec Base emit to_yaml load_eval1 src with
  | None => fst (run (mk_config (Some m) (Some t) None) fs) = Failure
  | Some y => run (mk_config (Some m) (Some t) None) fs = (Success, fs_write t y fs)
  end.
Proof.
  intros _ Hload Hw. unfold Cli.wasm, Cli.run. cbn [c_main c_target c_base]. rewrite Hload.
  destruct (load_eval1 src) as [spec|]; [|reflexivity].
  destruct (to_yaml (emit spec None)) as [y|]; [|reflexivity]. rewrite Hw. reflexivity.
Qed.

(** options over a configuration file: with a target given on the command line, success means
    that this target holds the document read from the main module given on the command line
    (when there is one), and the target named by the file, like every other path, is untouched *)
Theorem option_target_wins args file t fs e fs' :
  c_target args = Some t -> run (resolve args file) fs = (e, fs') ->
  (forall q, q <> t -> fs' q = fs q) /\
  (e = Success -> exists m spec ob y, orp (c_main args) (c_main file) = Some m /\ load_eval fs m = Some spec /\
                  to_yaml (emit spec ob) = Some y /\ fs' t = Some y).
Proof.
  intros Ht H. split.
  - intros q Hq. apply (other_files_untouched _ _ _ _ q H). unfold resolve; cbn [c_target]. rewrite Ht. cbn. congruence.
  - intros ->. destruct (success_writes_document _ _ _ H) as (m & t' & spec & ob & y & Hm & Ht' & Hl & Hy & -> & _).
    unfold resolve in Hm, Ht'; cbn [c_main c_target] in Hm, Ht'. rewrite Ht in Ht'. cbn in Ht'. inversion Ht'; subst t'.
    exists m, spec, ob, y. repeat split; try assumption. unfold fs_write. rewrite N.eqb_refl. reflexivity.
Qed.

Lemma resolve_no_file args : resolve args (mk_config None None None) = args.
Proof. destruct args as [[?|] [?|] [?|]]; reflexivity. Qed.
Lemma resolve_no_args file : resolve (mk_config None None None) file = file.
Proof. destruct file; reflexivity. Qed.
End Glue.
