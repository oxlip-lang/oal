(** The oal grammar has a termination certificate: the parser model never runs out of a fuel
    that is linear in the number of tokens. *)
From Coq Require Import Lia Arith PeanoNat List Bool.
From Oal Require Import Peg Grammar PegProofs PegTerm GrammarProofs.
Local Open Scope nat_scope.

Definition NP : nat := 63.

Fixpoint iter {A} (n : nat) (f : A -> A) (x : A) : A := match n with O => x | S n' => iter n' f (f x) end.

Definition tab_get {A} (d : A) (t : list A) (nt : nat) : A := nth nt t d.

(** which productions consume a token whenever they succeed: least fixed point by iteration
    (whether 70 rounds reach it does not matter: [oal_certificate] checks what comes out) *)
Definition cons_step (t : list bool) : list bool :=
  map (fun nt => consumes (tab_get false t) (oal_grammar nt)) (List.seq 0%nat NP).
Definition cons_tab : list bool := iter 70 cons_step (map (fun _ => false) (List.seq 0%nat NP)).
Definition ocons (nt : nat) : bool := tab_get false cons_tab nt.

(** ranks by relaxation *)
Definition rank_step (t : list nat) : list nat :=
  map (fun nt => lrank ocons (tab_get 0 t) (oal_grammar nt)) (List.seq 0%nat NP).
Definition rank_tab : list nat := iter 70 rank_step (map (fun _ => 0) (List.seq 0%nat NP)).
Definition orank (nt : nat) : nat := tab_get 0 rank_tab nt.

(* a bound on [crank], which is [S (rank nt)] at [Call nt] *)
Definition OR : nat := S (fold_right Nat.max 0 rank_tab).
Definition OZ : nat := fold_right Nat.max 1 (map (fun nt => psize (oal_grammar nt)) (List.seq 0%nat NP)).

(** The tables are defined by iteration, and every evaluation that touches them iterates again:
    the check of the certificate and the constants of the fuel bound are evaluated together, once. *)
Lemma oal_certificate :
  (forallb (prod_okb oal_grammar ocons orank OR OZ) (List.seq 0%nat NP), (OR, OZ, orank P_PROGRAM)) = (true, (19, 26, 5)).
Proof. vm_compute. reflexivity. Qed.

Lemma certificate_checks : forallb (prod_okb oal_grammar ocons orank OR OZ) (List.seq 0%nat NP) = true.
Proof. exact (proj1 (proj1 (pair_equal_spec _ _ _ _) oal_certificate)). Qed.

Lemma oal_fuel_constants : (OR, OZ, orank P_PROGRAM) = (19, 26, 5).
Proof. exact (proj2 (proj1 (pair_equal_spec _ _ _ _) oal_certificate)). Qed.

(** numbers from [NP] on stand for no production *)
Lemma oal_grammar_default nt : NP <= nt -> oal_grammar nt = Tok 999.
Proof. intros H. replace nt with (NP + (nt - NP)) by lia. reflexivity. Qed.

Lemma oal_start_ok : S (orank P_PROGRAM) <= OR /\ 1 <= OZ.
Proof. pose proof oal_fuel_constants as C. apply pair_equal_spec in C as [[HR HZ]%pair_equal_spec HP]. lia. Qed.

(** what the two termination theorems ask of the start expression, [Call P_PROGRAM] at the
    first cursor *)
Lemma oal_start_measure toks n : PegTerm.B OR OZ (length toks) (S (orank P_PROGRAM)) 1 <= n ->
  crank orank (Call P_PROGRAM) <= OR /\ psize (Call P_PROGRAM) <= OZ /\
  PegTerm.B OR OZ (PegTerm.left toks (skip is_trivia toks 0)) (lrank ocons orank (Call P_PROGRAM)) (psize (Call P_PROGRAM)) <= n.
Proof.
  intros Hn. cbn [crank psize lrank]. destruct oal_start_ok as [HR HZ].
  pose proof (B_mono_u OR OZ (PegTerm.left toks (skip is_trivia toks 0)) (length toks) (S (orank P_PROGRAM)) 1) as M.
  unfold PegTerm.left in *. lia.
Qed.

Lemma oal_prod_ok : forall nt, prod_okb oal_grammar ocons orank OR OZ nt = true.
Proof.
  intros nt. destruct (Nat.lt_ge_cases nt NP) as [Hlt|Hge].
  - pose proof certificate_checks as H. rewrite forallb_forall in H. apply H. apply List.in_seq. lia.
  - unfold prod_okb. rewrite (oal_grammar_default nt Hge). cbn [consumes lrank crank psize].
    destruct oal_start_ok as [_ HZ]. apply Nat.leb_le in HZ.
    rewrite HZ, orb_true_r. reflexivity.
Qed.

Theorem oal_parse_terminates (toks : list N) n :
  PegTerm.B OR OZ (length toks) (S (orank P_PROGRAM)) 1 <= n -> parse_pure n toks <> Fuel.
Proof.
  intros Hn. destruct (oal_start_measure toks n Hn) as (Hc & Hz & HB). unfold parse_pure.
  apply run_terminates with (cons := ocons) (rank := orank) (R := OR) (Z := OZ); [exact oal_prod_ok|exact Hc|exact Hz|exact HB].
Qed.

Theorem oal_parse_memo_terminates (toks : list N) n :
  PegTerm.B OR OZ (length toks) (S (orank P_PROGRAM)) 1 <= n -> fst (parse_memo n toks) <> Fuel.
Proof.
  intros Hn. destruct (oal_start_measure toks n Hn) as (Hc & Hz & HB). unfold parse_memo.
  apply runm_terminates with (cons := ocons) (rank := orank) (R := OR) (Z := OZ) (tag_body := oal_tag_body);
    [exact oal_prod_ok|exact oal_wf|exact I|apply table_ok_empty|exact Hc|exact Hz|exact HB].
Qed.

Theorem oal_parsers_terminate : forall (toks : list N) n,
  length toks * (S OR * S OZ) + S (orank P_PROGRAM) * S OZ + 1 <= n ->
  parse_pure n toks <> Fuel /\ fst (parse_memo n toks) <> Fuel.
Proof.
  intros toks n Hn. split; [apply oal_parse_terminates|apply oal_parse_memo_terminates]; exact Hn.
Qed.
