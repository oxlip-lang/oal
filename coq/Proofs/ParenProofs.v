(** Parentheses are free (C05, evaluator stage): removing every sub-expression node ([ESub],
    a parenthesised expression) from a whole program and from the evaluated expression does
    not change the result of the evaluator model: same value, same reference table, same error
    or panic, for the code's semantics and for the lexical one. Hence any two programs that
    differ only in where parentheses stand evaluate to the same result whenever both
    evaluations end; and the evaluation of the parenthesised program ends whenever that of the
    stripped one does, with fuel [n (d + 1) + d] for [n], [d] the deepest nest of parentheses.
    Values and states never contain expressions, so these are equations between results. *)
From Oal Require Import Eval ListFacts EvalBasics EvalCong FuelProofs.
From Coq Require Import Lia.
Local Open Scope N_scope.

Fixpoint strip (e : expr) : expr :=
  match e with
  | ETerm anns e' => ETerm anns (strip e')
  | ESub e' => strip e'
  | EPrim p => EPrim p
  | ELitStr x => ELitStr x
  | ELitNum x => ELitNum x
  | ELitStat x => ELitStat x
  | EDecl m i => EDecl m i
  | EConcat => EConcat
  | EBind x => EBind x
  | EApp f args => EApp (strip f) (map strip args)
  | ERec m i x e' => ERec m i x (strip e')
  | EObj ps => EObj (map strip ps)
  | EProp name req e' => EProp name req (strip e')
  | EUnary b e' => EUnary b (strip e')
  | EArr e' => EArr (strip e')
  | EOp op es => EOp op (map strip es)
  | ECont body metas =>
      ECont (option_map strip body) (map (fun ke => match ke with (k, e') => (k, strip e') end) metas)
  | EXfer ms dom rg prm => EXfer ms (option_map strip dom) (strip rg) (option_map strip prm)
  | EUri segs prm =>
      EUri (map (fun sg => match sg with inl x => inl x | inr e' => inr (strip e') end) segs) (option_map strip prm)
  | ERel u xs => ERel (strip u) (map strip xs)
  end.

Definition strip_meta (ke : N * expr) : N * expr := match ke with (k, e') => (k, strip e') end.
Definition strip_seg (sg : str + expr) : str + expr := match sg with inl x => inl x | inr e' => inr (strip e') end.
Definition strip_decl (d : decl) : decl := mk_decl (d_ref d) (d_rec d) (d_anns d) (d_params d) (strip (d_rhs d)).
Definition strip_prog (P : prog) : prog := map (map strip_decl) P.

Lemma strip_emap e : strip e = match e with ESub e' => strip e' | _ => emap strip e end.
Proof. destruct e; reflexivity. Qed.

Lemma get_decl_strip P m i : get_decl (strip_prog P) m i = option_map (dmap strip) (get_decl P m i).
Proof. exact (get_decl_map strip P m i). Qed.

Section Strip.
  Variable lx : bool.
  Variable P : prog.
  Notation P' := (strip_prog P).

  Theorem eval_strip : forall n s e a, lef (eval lx P n s e a) (eval lx P' n s (strip e) a).
  Proof.
    induction n as [|n IH]; intros s e a; [left; reflexivity|].
    rewrite strip_emap. destruct e;
      try (apply (lef_cong lx P P' strip (get_decl_strip P) any_ann I (fun _ _ _ => I));
           [intros ? ? ? _ ? ? _; apply IH|intros ? _ ? ? _; apply IH|exact I]).
    (* a parenthesis node costs the left side one unit of fuel *)
    rewrite (eval_S lx P n s (ESub e)). cbn [eval_step].
    eapply lef_trans; [apply IH|apply eval_fuel_step].
  Qed.

  Theorem eval_program_strip n rs : lef (eval_program lx P n rs) (eval_program lx P' n (map strip rs)).
  Proof.
    apply (lef_program_cong lx P P' strip any_ann I).
    intros c _ s a _. apply eval_strip.
  Qed.
End Strip.

(** two programs that differ only in parentheses: whenever both evaluations end, they end alike *)
Theorem parentheses_are_free lx P1 P2 rs1 rs2 n1 n2 :
  strip_prog P1 = strip_prog P2 -> map strip rs1 = map strip rs2 ->
  eval_program lx P1 n1 rs1 <> Fuel -> eval_program lx P2 n2 rs2 <> Fuel ->
  eval_program lx P1 n1 rs1 = eval_program lx P2 n2 rs2.
Proof.
  intros HP Hr H1 H2.
  destruct (eval_program_strip lx P1 n1 rs1) as [E1|E1]; [contradiction|].
  destruct (eval_program_strip lx P2 n2 rs2) as [E2|E2]; [contradiction|].
  rewrite E1 in H1 |- *. rewrite E2 in H2 |- *. rewrite HP, Hr in H1 |- *.
  apply eval_program_fuel_agree; assumption.
Qed.

(** The converse: the parenthesised program ends whenever the stripped one does. *)
Local Open Scope nat_scope.

Fixpoint lead (e : expr) : nat := match e with ESub e' => S (lead e') | _ => 0 end.
Definition lmax (l : list nat) : nat := fold_right Nat.max 0 l.

(** the longest chain of directly nested parentheses anywhere in the expression *)
Fixpoint pd (e : expr) : nat :=
  match e with
  | ETerm _ e' | EProp _ _ e' | EUnary _ e' | EArr e' | ERec _ _ _ e' => pd e'
  | ESub e' => Nat.max (S (lead e')) (pd e')
  | EApp f args => Nat.max (pd f) (lmax (map pd args))
  | EObj ps => lmax (map pd ps)
  | EOp _ es => lmax (map pd es)
  | ECont body metas =>
      Nat.max (match body with Some b => pd b | None => 0 end) (lmax (map (fun ke : N * expr => pd (snd ke)) metas))
  | EXfer _ dom rg prm =>
      Nat.max (match dom with Some b => pd b | None => 0 end) (Nat.max (pd rg) (match prm with Some b => pd b | None => 0 end))
  | EUri segs prm =>
      Nat.max (lmax (map (fun sg : str + expr => match sg with inl _ => 0 | inr e' => pd e' end) segs))
              (match prm with Some b => pd b | None => 0 end)
  | ERel u xs => Nat.max (pd u) (lmax (map pd xs))
  | _ => 0
  end.

Definition pd_prog (P : prog) : nat := lmax (map (fun ds => lmax (map (fun d => pd (d_rhs d)) ds)) P).

Lemma lmax_in x l : In x l -> x <= lmax l.
Proof. exact (max_in (fun y => y) l x). Qed.

Lemma lmax_map_in {A} (f : A -> nat) l x : In x l -> f x <= lmax (map f l).
Proof. intros H. apply lmax_in, in_map, H. Qed.

Lemma lead_le_pd e : lead e <= pd e.
Proof. destruct e; cbn [lead pd]; lia. Qed.

Lemma pd_subs e c : In c (subs e) -> pd c <= pd e.
Proof.
  assert (L : forall l, In c l -> pd c <= lmax (map pd l)) by (intros l; apply lmax_map_in).
  destruct e; cbn [subs pd]; intros H; try (destruct H; fail); try (destruct H as [<-|[]]; lia).
  - destruct H as [<-|H]; [lia|specialize (L _ H); lia].
  - apply L, H.
  - apply L, H.
  - apply in_app_or in H as [H|H]; [apply in_opt_list in H as ->; lia|].
    rewrite <- (map_map snd pd). specialize (L _ H). lia.
  - apply in_app_or in H as [H|[<-|H]]; [apply in_opt_list in H as ->| |apply in_opt_list in H as ->]; lia.
  - apply in_app_or in H as [H|H]; [|apply in_opt_list in H as ->; lia].
    apply in_flat_map in H as ([x|x] & Hx & Hc); [destruct Hc|]. destruct Hc as [<-|[]].
    pose proof (lmax_map_in (fun sg : str + expr => match sg with inl _ => 0 | inr e' => pd e' end) segs (inr x) Hx). cbn beta iota in *. lia.
  - destruct H as [<-|H]; [lia|specialize (L _ H); lia].
Qed.

Lemma pd_get_decl P m i d : get_decl P m i = Some d -> pd (d_rhs d) <= pd_prog P.
Proof.
  unfold get_decl, pd_prog. destruct (nth_error P (N.to_nat m)) as [ds|] eqn:E; [|discriminate]. intros H.
  apply nth_error_In in E, H. etransitivity; [|apply (lmax_map_in _ P ds E)]. apply (lmax_map_in (fun d => pd (d_rhs d)) ds d H).
Qed.

Section Unstrip.
  Variable lx : bool.
  Variable P : prog.
  Variable d : nat.
  Hypothesis HP : pd_prog P <= d.
  Notation P' := (strip_prog P).

  (** a chain of [lead e] parentheses costs one unit of fuel each; below it, one step of the
      stripped program is matched by one step of the parenthesised one whose sub-evaluations
      get [d] units more, enough for any chain they start with *)
  Theorem eval_unstrip : forall n s e a, pd e <= d ->
    lef (eval lx P' n s (strip e) a) (eval lx P (n * S d + lead e) s e a).
  Proof.
    induction n as [|n IH]; intros s e a Hd; [left; reflexivity|].
    assert (IHa : forall s e a, pd e <= d -> lef (eval lx P' n s (strip e) a) (eval lx P (n * S d + d) s e a)).
    { intros s0 e0 a0 H0. eapply lef_more; [apply IH, H0|]. pose proof (lead_le_pd e0). lia. }
    assert (Hstep : forall e, pd e <= d ->
              lef (eval lx P' (S n) s (emap strip e) a) (eval lx P (S (n * S d + d)) s e a)).
    { intros e0 H0.
      apply (fel_cong lx P P' strip (get_decl_strip P) any_ann I (fun _ _ _ => I));
        [|intros c Hc s0 a0 _; apply IHa; pose proof (pd_subs e0 c Hc); lia|exact I].
      intros m i dd Hdd s0 a0 _. apply IHa. pose proof (pd_get_decl P m i dd Hdd). lia. }
    clear IH. revert Hd. rewrite strip_emap.
    induction e; intros Hd; cbn [lead]; try (replace (S n * S d + 0) with (S (n * S d + d)) by lia; apply Hstep, Hd).
    replace (S n * S d + S (lead e)) with (S (S n * S d + lead e)) by lia.
    rewrite (eval_S lx P _ s (ESub e)). cbn [eval_step].
    rewrite strip_emap. apply IHe. cbn [pd] in Hd. lia.
  Qed.

  Theorem eval_program_unstrip n rs : (forall r, In r rs -> pd r <= d) ->
    lef (eval_program lx P' n (map strip rs)) (eval_program lx P (n * S d + d) rs).
  Proof.
    intros Hrs. apply (fel_program_cong lx P P' strip any_ann I).
    intros c Hc s a _. eapply lef_more; [apply eval_unstrip, Hrs, Hc|]. pose proof (lead_le_pd c). specialize (Hrs c Hc). lia.
  Qed.
End Unstrip.

(** adding parentheses anywhere keeps the result, and the evaluation still ends: if a program
    evaluates with fuel [n], every program with the same stripped form evaluates to the same
    result with fuel [n * (d + 1) + d], [d] its deepest nest of parentheses *)
Theorem parenthesised_program_evaluates lx P1 P2 rs1 rs2 n r d :
  strip_prog P1 = strip_prog P2 -> map strip rs1 = map strip rs2 ->
  pd_prog P2 <= d -> (forall x, In x rs2 -> pd x <= d) ->
  eval_program lx P1 n rs1 = r -> r <> Fuel ->
  eval_program lx P2 (n * S d + d) rs2 = r.
Proof.
  intros HP Hr Hd Hrs H Hne.
  destruct (eval_program_strip lx P1 n rs1) as [E1|E1]; [congruence|].
  destruct (eval_program_unstrip lx P2 d Hd n rs2 Hrs) as [E2|E2].
  - rewrite <- HP, <- Hr, <- E1 in E2. congruence.
  - rewrite <- E2, <- HP, <- Hr, <- E1. exact H.
Qed.

Local Open Scope N_scope.
(** non-vacuity: a program with parentheses around a body, an argument and a whole resource;
    it differs from its stripped form and both evaluate to the same document *)
Example ex_paren_P : prog :=
  [[ mk_decl None false [] [7] (ESub (EObj [EProp 20 None (ESub (ESub (ETerm [] (EBind 7))))]));
     mk_decl None false [] [7] (EApp (EDecl 0 0) [ESub (ETerm [] (EBind 7))]) ]].
Example ex_paren_rs : list expr :=
  [ERel (ETerm [] (EUri [inl 30] None))
        [EXfer [0] None (ECont (Some (ESub (EApp (EDecl 0 1) [ETerm [] (EPrim 1)]))) []) None]].
Example ex_parentheses :
  strip_prog ex_paren_P <> ex_paren_P /\ pd_prog ex_paren_P = 2%nat /\
  exists r, eval_program false ex_paren_P 50 ex_paren_rs = Ok r /\
            eval_program false (strip_prog ex_paren_P) 50 (map strip ex_paren_rs) = Ok r.
Proof. split; [discriminate|]. split; [reflexivity|]. eexists. split; vm_compute; reflexivity. Qed.
