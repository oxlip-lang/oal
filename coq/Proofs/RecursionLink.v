(** From the recursion check to stratification. The recursion check works on a graph of
    declarations; the evaluator on resolved trees. If the graph has an edge for every use of a
    declaration inside the right-hand side of another ([H_edges]) and every declaration the
    check flags is memoised by the evaluator ([H_marks]: it is cut in the sense of [Strat.cutb];
    compile.rs stores the flag as [d_rec], on declarations without parameters, which is one way
    of being cut), then acceptance by the check excludes every cycle of uses
    that avoids the memoised declarations; with first-order bodies the program is stratified,
    and a well-typed one evaluates for every large enough fuel. [H_edges] and [H_marks]
    describe how compile.rs builds the graph and stores the flags; they are what the
    stratification tie observes on every accepted program. *)
From Oal Require Import Eval Strat Cycles CyclesProofs InlineProofs RankProofs Typing TypingProofs TermProofs.
From Oal Require EvalIO.

Section Link.
  Variable P : prog.
  Variable referential : N -> bool.
  Variable scc : list N -> graph -> list (list N).
  Hypothesis Hscc : scc_spec scc.
  Variable nu : N -> N -> N.                      (* the node of a declaration in the graph *)
  Variable ns : list N.
  Variable g : graph.
  Variable marks : list N.

  Hypothesis H_edges : forall x y, edge P x y -> In (nu (fst x) (snd x), nu (fst y) (snd y)) g.
  Hypothesis H_marks : forall m i, In (nu m i) marks -> cutb P m i = true.
  Hypothesis H_accept : cycles_check referential scc (S (length g)) ns g [] = COk marks.

  Lemma edge_step x y : edge P x y ->
    In (nu (fst x) (snd x), nu (fst y) (snd y)) g /\ ~ In (nu (fst y) (snd y)) marks.
  Proof.
    intros He. split; [apply H_edges, He|]. intros Hin. apply H_marks in Hin.
    rewrite (edge_uncut P x y He) in Hin. discriminate.
  Qed.

  Lemma chain_walk : forall l x y, chain P x (l ++ [y]) ->
    walkP (fun n => ~ In n marks) g (nu (fst x) (snd x)) (nu (fst y) (snd y)).
  Proof.
    induction l as [|z l IH]; intros x y Hc; cbn [app chain] in Hc; destruct Hc as [He Hc];
      destruct (edge_step _ _ He) as [Hg Hm].
    - apply walkP_one; assumption.
    - eapply walkP_cons; [exact Hg|exact Hm|apply IH, Hc].
  Qed.

  Theorem accepted_is_acyclic : ~ cyclic P.
  Proof.
    intros (y & l & Hc). apply (flagged_cut_every_cycle referential scc Hscc ns g marks H_accept).
    exists (nu (fst y) (snd y)). apply (chain_walk l y y Hc).
  Qed.

  Theorem accepted_first_order_is_stratified rs :
    (forall m i d, get_decl P m i = Some d -> fo P (d_rhs d) = true) -> (forall r, In r rs -> fo P r = true) ->
    stratified P rs = true.
  Proof. intros Hd Hr. apply stratified_iff. split; [exact accepted_is_acyclic|]. split; assumption. Qed.

  Theorem accepted_well_typed_programs_evaluate E rs :
    Typing.wt_progb E P rs = true ->
    (forall m i d, get_decl P m i = Some d -> fo P (d_rhs d) = true) -> (forall r, In r rs -> fo P r = true) ->
    exists N, forall n, N <= n ->
      match eval_program false P n rs with
      | Ok _ | Err _ => True
      | Panic p => TypingProofs.allowed p
      | Fuel => False
      end.
  Proof. intros Hwt Hd Hr. apply (accepted_programs_evaluate E P rs Hwt). apply accepted_first_order_is_stratified; assumption. Qed.
End Link.

(** [H_edges] from the list of uses: it is enough that the graph contains the pairs of
    [EvalIO.use_edges], which is what the tie compares with the graph the code builds *)
Theorem accepted_is_acyclic_by_use_edges P referential scc (Hscc : scc_spec scc) (nu : N -> N -> N) ns g marks :
  (forall x y, In (x, y) (EvalIO.use_edges P) -> In (nu (fst x) (snd x), nu (fst y) (snd y)) g) ->
  (forall m i, In (nu m i) marks -> cutb P m i = true) ->
  cycles_check referential scc (S (length g)) ns g [] = COk marks ->
  ~ cyclic P.
Proof.
  intros He Hm Ha. apply (accepted_is_acyclic P referential scc Hscc nu ns g marks); try assumption.
  intros x y Hxy. apply He, edge_in_use_edges, Hxy.
Qed.
