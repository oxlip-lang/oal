(** Proofs about Model/Lsp.v (property C15): the server's copy of a document follows the
    client's through any history of well-formed edits. *)
From Coq Require Import Lia.
From Oal Require Import Text Position PositionProofs Lsp.

Lemma split_at8_app pre : forall suf, split_at8 (pre ++ suf) (len8s pre) = Some (pre, suf).
Proof.
  induction pre as [|c pre IH]; intros suf.
  - cbn [app len8s]. destruct suf; cbn [split_at8]; rewrite N.eqb_refl; reflexivity.
  - cbn [app len8s split_at8]. pose proof (len8_pos c).
    destruct (N.eqb_spec (len8 c + len8s pre) 0) as [E|_]; [lia|].
    destruct (N.ltb_spec (len8 c + len8s pre) (len8 c)) as [E|_]; [lia|].
    replace (len8 c + len8s pre - len8 c) with (len8s pre) by lia. rewrite IH. reflexivity.
Qed.

Lemma replace_range_span a b c w :
  replace_range (a ++ b ++ c) (len8s a) (len8s (a ++ b)) w = Some (a ++ w ++ c).
Proof.
  unfold replace_range. rewrite split_at8_app.
  rewrite (app_assoc a b c). rewrite split_at8_app.
  rewrite len8s_app. destruct (N.leb_spec (len8s a) (len8s a + len8s b)); [reflexivity|lia].
Qed.

(** the position a client computes for the boundary after [pre] *)
Definition client_pos (pre : text) : N * N := (count_lf pre, len16s (last_line pre)).

Lemma client_pos_pos_of pre : client_pos pre = pos_of pre.
Proof. reflexivity. Qed.

(** an edit sent for the text span [b] of the document a ++ b ++ c replaces exactly that span *)
Theorem edit_applies_exactly a b c w :
  crlf_wf (a ++ b ++ c) = true ->
  inside_crlf a (b ++ c) = false -> inside_crlf (a ++ b) c = false ->
  apply_change (a ++ b ++ c)
    (CIncr (fst (client_pos a)) (snd (client_pos a)) (fst (client_pos (a ++ b))) (snd (client_pos (a ++ b))) w)
  = Some (a ++ w ++ c).
Proof.
  intros Hwf H1 H2. cbn [apply_change]. rewrite (client_pos_pos_of a), (client_pos_pos_of (a ++ b)).
  pose proof (position_of_boundary (a ++ b) c) as R2. rewrite <- app_assoc in R2.
  rewrite (position_of_boundary a (b ++ c) Hwf H1), (R2 Hwf H2). apply replace_range_span.
Qed.

Inductive cchange :=
| KFull (t : text)
| KSpan (a b c w : text).        (* the client's document is a ++ b ++ c; it replaces b by w *)

Definition to_server (k : cchange) : change :=
  match k with
  | KFull t => CFull t
  | KSpan a b c w => CIncr (fst (client_pos a)) (snd (client_pos a)) (fst (client_pos (a ++ b))) (snd (client_pos (a ++ b))) w
  end.

Definition client_apply (k : cchange) : text :=
  match k with KFull t => t | KSpan a b c w => a ++ w ++ c end.

Definition wf_change (doc : text) (k : cchange) : Prop :=
  match k with
  | KFull _ => True
  | KSpan a b c _ => doc = a ++ b ++ c /\ crlf_wf doc = true /\
                     inside_crlf a (b ++ c) = false /\ inside_crlf (a ++ b) c = false
  end.

Fixpoint wf_changes (doc : text) (ks : list cchange) : Prop :=
  match ks with [] => True | k :: ks' => wf_change doc k /\ wf_changes (client_apply k) ks' end.

Fixpoint client_applies (doc : text) (ks : list cchange) : text :=
  match ks with [] => doc | k :: ks' => client_applies (client_apply k) ks' end.

Lemma changes_track doc ks : wf_changes doc ks ->
  apply_changes doc (map to_server ks) = Some (client_applies doc ks).
Proof.
  revert doc. induction ks as [|k ks IH]; intros doc H; [reflexivity|].
  cbn [map apply_changes wf_changes client_applies] in *. destruct H as [Hk Hks].
  destruct k as [t|a b c w]; cbn [to_server client_apply] in *.
  - cbn [apply_change]. apply IH, Hks.
  - destruct Hk as (-> & Hwf & H1 & H2). rewrite (edit_applies_exactly a b c w Hwf H1 H2). apply IH, Hks.
Qed.

Inductive cevent := COpen (u : N) (t : text) | CChange (u : N) (ks : list cchange) | CClose (u : N).

Definition ev_to_server (e : cevent) : event :=
  match e with
  | COpen u t => EOpen u t
  | CChange u ks => EChange u (map to_server ks)
  | CClose u => EClose u
  end.

(** the client's view of its open documents *)
Definition client_step (s : store) (e : cevent) : store :=
  match e with
  | COpen u t => st_set u t s
  | CClose u => st_del u s
  | CChange u ks => match st_get u s with Some doc => st_set u (client_applies doc ks) s | None => s end
  end.

Definition wf_event (s : store) (e : cevent) : Prop :=
  match e with
  | CChange u ks => match st_get u s with Some doc => wf_changes doc ks | None => True end
  | _ => True
  end.

Fixpoint wf_history (s : store) (h : list cevent) : Prop :=
  match h with [] => True | e :: h' => wf_event s e /\ wf_history (client_step s e) h' end.

Fixpoint client_run (s : store) (h : list cevent) : store :=
  match h with [] => s | e :: h' => client_run (client_step s e) h' end.

Theorem docs_track_client : forall h s,
  wf_history s h -> run s (map ev_to_server h) = Some (client_run s h).
Proof.
  induction h as [|e h IH]; intros s H; [reflexivity|].
  cbn [map run wf_history client_run] in *. destruct H as [He Hh].
  assert (Hs : step s (ev_to_server e) = Some (client_step s e)).
  { destruct e as [u t|u ks|u]; cbn [ev_to_server step client_step wf_event] in *; try reflexivity.
    destruct (st_get u s) as [doc|]; [|reflexivity]. rewrite (changes_track doc ks He). reflexivity. }
  rewrite Hs. apply IH, Hh.
Qed.

(** F5: position_to_utf8 as it stood before the fix ([p2u_go_pinned]) let a range start after its end *)
Lemma mid_surrogate_crash_pinned :
  let doc := [128521; 97; 98; 99] in
  replace_range doc (p2u_go_pinned doc 0 1 0 0 0) (p2u_go_pinned doc 0 3 0 0 0) [122] = None
  /\ apply_change doc (CIncr 0 1 0 3 [122]) = Some [128521; 122; 98; 99].
Proof. vm_compute. split; reflexivity. Qed.

(** after the fix an ordered range never panics: positions are boundaries and monotone *)
Lemma p2u_go_boundary t : forall pl pc line ch idx,
  exists p q, t = p ++ q /\ p2u_go t pl pc line ch idx = idx + len8s p.
Proof.
  induction t as [|c t IH]; intros pl pc line ch idx; cbn [p2u_go].
  - exists [], []. split; [reflexivity|]. cbn [len8s]. lia.
  - assert (Hstop : exists p q, c :: t = p ++ q /\ idx = idx + len8s p).
    { exists [], (c :: t). split; [reflexivity|]. cbn [len8s]. lia. }
    assert (Hgo : forall line' ch', exists p q, c :: t = p ++ q /\ p2u_go t pl pc line' ch' (idx + len8 c) = idx + len8s p).
    { intros line' ch'. destruct (IH pl pc line' ch' (idx + len8 c)) as (p & q & -> & ->).
      exists (c :: p), q. split; [reflexivity|]. cbn [len8s]. lia. }
    destruct (N.eqb line pl).
    + destruct (N.leb pc ch || is_lf c || is_cr c); [exact Hstop|apply Hgo].
    + destruct (is_lf c); apply Hgo.
Qed.

Lemma position_splits t pl pc : exists p q,
  split_at8 t (position_to_utf8 t pl pc) = Some (p, q) /\ position_to_utf8 t pl pc = len8s p.
Proof.
  destruct (p2u_go_boundary t pl pc 0 0 0) as (p & q & -> & H). rewrite N.add_0_l in H.
  exists p, q. unfold position_to_utf8. rewrite H. split; [apply split_at8_app|reflexivity].
Qed.

(** any ordered range, across lines too, never panics, whatever the positions (beyond the
    line, beyond the text, inside a surrogate pair, inside a CRLF pair) *)
Theorem change_never_panics doc sl sc el ec w :
  pos_le sl sc el ec -> apply_change doc (CIncr sl sc el ec w) <> None.
Proof.
  intros Hle. cbn [apply_change]. unfold replace_range.
  pose proof (position_mono doc sl sc el ec Hle) as Hm.
  destruct (position_splits doc sl sc) as (p1 & q1 & -> & H1).
  destruct (position_splits doc el ec) as (p2 & q2 & -> & H2).
  rewrite H1, H2 in *. destruct (N.leb_spec (len8s p1) (len8s p2)); [discriminate|lia].
Qed.

Theorem change_in_line_never_panics doc l sc ec w :
  sc <= ec -> apply_change doc (CIncr l sc l ec w) <> None.
Proof. intros Hle. apply change_never_panics. right. split; [reflexivity|exact Hle]. Qed.

(** a reversed range (end before start) is outside the protocol; the server dies on it *)
Lemma reversed_range_panics : apply_change [97; 98] (CIncr 0 1 0 0 []) = None.
Proof. reflexivity. Qed.

(** whole histories: if every incremental change of every notification is an ordered range,
    the server survives, whatever the positions and whatever the store *)
Definition ordered_change (c : change) : Prop :=
  match c with CFull _ => True | CIncr sl sc el ec _ => pos_le sl sc el ec end.
Definition ordered_event (e : event) : Prop :=
  match e with EChange _ cs => Forall ordered_change cs | _ => True end.

Lemma changes_never_panic cs : Forall ordered_change cs -> forall doc, apply_changes doc cs <> None.
Proof.
  induction 1 as [|c cs Hc _ IH]; intros doc; cbn [apply_changes]; [discriminate|].
  destruct (apply_change doc c) as [d|] eqn:E.
  - apply IH.
  - exfalso. destruct c as [t|sl sc el ec t]; [discriminate|].
    exact (change_never_panics doc sl sc el ec t Hc E).
Qed.

Theorem server_survives h : Forall ordered_event h -> forall s, run s h <> None.
Proof.
  induction 1 as [|e h He _ IH]; intros s; cbn [run]; [discriminate|].
  destruct (step s e) as [s'|] eqn:E; [apply IH|].
  exfalso. destruct e as [u t|u cs|u]; cbn [step] in E; try discriminate.
  destruct (st_get u s) as [doc|]; [|discriminate].
  destruct (apply_changes doc cs) as [d|] eqn:E2; [discriminate|].
  exact (changes_never_panic cs He doc E2).
Qed.
