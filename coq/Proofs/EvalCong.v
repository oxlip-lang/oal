(** One step of the evaluator commutes with a transformation [g] of the sub-expressions, a
    renaming [rho] of the binders and a map [sm] of the state, up to a relation [R] between
    the results of the two runs: [R] relates [Ok (t, v)] to [Ok (sm t, v)], every failure to
    itself, and is compatible with [bind]. The theorems reduce such a statement about fuel
    [S n] to the same statement about the sub-expressions and the declaration bodies at fuel
    [n]; FuelProofs, ParenProofs and InlineProofs (same state, [R] is "equal unless out of
    fuel") and EvalProofs (renamed scopes; the caller's stack underneath) are instances. The two
    amounts of fuel are independent variables, and a step is unfolded through
    [EvalBasics.eval_step], so that neither side is unfolded more than once. *)
From Oal Require Import Eval EvalBasics.
Local Open Scope N_scope.

Definition always (s : st) : Prop := True.
Definition any_ann (a : ymap) : Prop := True.

Definition emapr (rho : N -> N) (g : expr -> expr) (e : expr) : expr :=
  match e with
  | EBind x => EBind (rho x)
  | ERec m i x e' => ERec m i (rho x) (g e')
  | _ => emap g e
  end.
Definition dmapr (rho : N -> N) (g : expr -> expr) (d : decl) : decl :=
  mk_decl (d_ref d) (d_rec d) (d_anns d) (map rho (d_params d)) (g (d_rhs d)).

(** The constructs that only thread the state through their sub-expressions: they neither read
    nor write scopes or references themselves, and their sub-expressions are evaluated with the
    empty annotation. [eval_struct] handles them without any law about the state map. *)
Definition is_struct (e : expr) : bool :=
  match e with ETerm _ _ | ESub _ | EDecl _ _ | EBind _ | EApp _ _ | ERec _ _ _ _ => false | _ => true end.

Lemma emapr_struct rho g e : is_struct e = true -> emapr rho g e = emap g e.
Proof. destruct e; try discriminate; reflexivity. Qed.

Lemma lam_case2 {A} (Q : A -> A -> Prop) lam f d f' d' : (forall m i, Q (f m i) (f' m i)) -> Q d d' ->
  Q (match lam with VLamExt m i => f m i | _ => d end) (match lam with VLamExt m i => f' m i | _ => d' end).
Proof. intros Hf Hd. destruct lam; auto. Qed.

Section Congruence.
  Variable sm : st -> st.
  Variable Inv : st -> Prop.
  Variable R : forall B, res (st * B) -> res (st * B) -> Prop.
  Arguments R {B}.
  Hypothesis R_ok : forall B t (v : B), Inv t -> R (Ok (t, v)) (Ok (sm t, v)).
  Hypothesis R_err : forall B x, @R B (Err x) (Err x).
  Hypothesis R_panic : forall B p, @R B (Panic p) (Panic p).
  Hypothesis R_fuel : forall B, @R B Fuel Fuel.
  Hypothesis R_bind : forall B C (r r' : res (st * B)) (k k' : st * B -> res (st * C)),
    R r r' -> (forall t v, Inv t -> R (k (t, v)) (k' (sm t, v))) -> R (bind r k) (bind r' k').

  Lemma R_pure {A B} (c : res A) (k k' : A -> res (st * B)) : (forall x, c = Ok x -> R (k x) (k' x)) -> R (bind c k) (bind c k').
  Proof. intros Hk. destruct c; cbn [bind]; auto. Qed.

  Lemma R_map {B C} (r r' : res (st * B)) (k : B -> C) : R r r' -> R (do (s1, b) <- r; Ok (s1, k b)) (do (s1, b) <- r'; Ok (s1, k b)).
  Proof. intros H. apply R_bind; [exact H|]. intros t v Ht. apply R_ok, Ht. Qed.

  Section Lists.
    Context {X Y B : Type}.
    Variable h : X -> Y.
    Variables (f : st -> X -> res (st * B)) (f' : st -> Y -> res (st * B)).

    Lemma map_st_cong l : (forall s x, In x l -> Inv s -> R (f s x) (f' (sm s) (h x))) ->
      forall s, Inv s -> R (map_st f s l) (map_st f' (sm s) (map h l)).
    Proof.
      induction l as [|x l IH]; intros Hf s Hs; cbn [map map_st]; [apply R_ok, Hs|].
      apply R_bind; [apply Hf; [left; reflexivity|exact Hs]|]. intros s1 b H1.
      apply R_map, IH; [intros s0 y Hy; apply Hf; right; exact Hy|exact H1].
    Qed.

    Lemma opt_st_cong o s : (forall s x, o = Some x -> Inv s -> R (f s x) (f' (sm s) (h x))) -> Inv s ->
      R (opt_st f s o) (opt_st f' (sm s) (option_map h o)).
    Proof.
      intros Hf Hs. destruct o as [x|]; cbn [option_map opt_st]; [apply R_map, Hf; [reflexivity|exact Hs]|apply R_ok, Hs].
    Qed.
  End Lists.

  Section Args.
    Variable g : expr -> expr.
    Variables ev ev' : st -> expr -> res (st * aval).

    (** the scope is not a value both runs share: continuation-passing form *)
    Lemma bind_args_cong {C} (rho : N -> N) (scm : scope -> scope) (k k' : st * scope -> res (st * C)) args :
      (forall p v sc, im_insert N.eqb (rho p) v (scm sc) = scm (im_insert N.eqb p v sc)) ->
      (forall s e, In e args -> Inv s -> R (ev s e) (ev' (sm s) (g e))) ->
      (forall t sc2, Inv t -> R (k (t, sc2)) (k' (sm t, scm sc2))) ->
      forall s ps sc sc', sc' = scm sc -> Inv s ->
      R (bind (bind_args ev s ps args sc) k) (bind (bind_args ev' (sm s) (map rho ps) (map g args) sc') k').
    Proof.
      intros Hins. induction args as [|a args IH]; intros Hev Hk s ps sc sc' -> Hs.
      - destruct ps; cbn [map bind_args bind]; apply Hk, Hs.
      - destruct ps as [|p ps]; [cbn [map bind_args bind]; apply Hk, Hs|].
        cbn [map bind_args]. rewrite !bind_assoc.
        apply R_bind; [apply Hev; [left; reflexivity|exact Hs]|]. intros s1 v H1.
        apply IH; [intros s0 e He; apply Hev; right; exact He|exact Hk|apply Hins|exact H1].
    Qed.

    Lemma eval_metas_cong ms : (forall s e, In e (map snd ms) -> Inv s -> R (ev s e) (ev' (sm s) (g e))) ->
      forall s acc, Inv s -> R (eval_metas ev s ms acc) (eval_metas ev' (sm s) (map (on_meta g) ms) acc).
    Proof.
      induction ms as [|[k rhs] ms IH]; intros Hev s acc Hs; cbn [map on_meta eval_metas]; [apply R_ok, Hs|].
      apply R_bind; [apply Hev; [left; reflexivity|exact Hs]|]. intros s1 v H1. destruct acc as [[status media] headers].
      assert (IH' := IH (fun s0 e0 H0 => Hev s0 e0 (or_intror H0))).
      destruct k as [|[p|p|]]; apply R_pure; intros x _; apply IH', H1.
    Qed.

    Lemma then_cong {B C} (c : aval -> res B) (k : B -> C) s e : R (ev s e) (ev' (sm s) (g e)) ->
      R (do (s', v) <- ev s e; do x <- c v; Ok (s', k x)) (do (s', v) <- ev' (sm s) (g e); do x <- c v; Ok (s', k x)).
    Proof. intros H. apply R_bind; [exact H|]. intros s1 v H1. apply R_pure. intros x _. apply R_ok, H1. Qed.
  End Args.

  Variable g : expr -> expr.

  Lemma app_builtin_cong ev ev' s1 args (ann : ymap) : Inv s1 ->
    (forall s c, In c args -> Inv s -> R (ev s c) (ev' (sm s) (g c))) ->
    R (app_builtin ev s1 args ann) (app_builtin ev' (sm s1) (map g args) ann).
  Proof.
    intros H1 Hev. unfold app_builtin. apply R_bind; [apply map_st_cong; assumption|]. intros s2 vs H2.
    destruct vs as [|vl [|vr [|vx vs]]]; try apply R_panic.
    apply R_pure; intros ru _. apply R_pure; intros lu _. apply R_pure; intros u _. apply R_ok, H2.
  Qed.

  (** these constructs do not consult the binding discipline, which may differ between the two runs *)
  Variables (lx lx' : bool) (P P' : prog).
  Variables n n' : nat.

  Theorem eval_struct e s a : is_struct e = true -> Inv s ->
    (forall c, In c (subs e) -> forall s, Inv s -> R (eval lx P n s c []) (eval lx' P' n' (sm s) (g c) [])) ->
    R (eval lx P (S n) s e a) (eval lx' P' (S n') (sm s) (emap g e) a).
  Proof.
    intros Es Hs H0.
    set (EV := fun s e => eval lx P n s e []) in *.
    set (EV' := fun s e => eval lx' P' n' s e []) in *.
    assert (Hc : forall B C (cast : aval -> res B) (k : B -> C) c, In c (subs e) -> forall s, Inv s ->
               R (do (s', v) <- EV s c; do x <- cast v; Ok (s', k x)) (do (s', v) <- EV' (sm s) (g c); do x <- cast v; Ok (s', k x)))
      by (intros B C cast k c Hin s0 Hs0; apply then_cong, H0; assumption).
    rewrite !eval_S. destruct e; try discriminate Es; clear Es; cbn [eval_step emap]; cbn [subs] in H0, Hc; try (apply R_ok, Hs).
    - (* EPrim *) apply R_pure. intros v _. apply R_ok, Hs.
    - (* EObj *)
      apply R_map, map_st_cong; [intros ? x Hx; apply Hc, Hx|exact Hs].
    - apply Hc; [left; reflexivity|exact Hs].
    - apply Hc; [left; reflexivity|exact Hs].
    - apply Hc; [left; reflexivity|exact Hs].
    - (* EOp *)
      destruct (N.eqb op 3).
      + apply R_map, map_st_cong; [intros ? x Hx; apply Hc, Hx|exact Hs].
      + destruct (vop_of op) as [vo|]; [|apply R_panic].
        apply R_map, map_st_cong; [intros ? x Hx; apply Hc, Hx|exact Hs].
    - (* ECont *)
      apply R_bind; [apply opt_st_cong; [intros ? x ->; apply Hc; left; reflexivity|exact Hs]|]. intros s1 schema H1.
      apply R_bind; [apply eval_metas_cong; [intros ? x Hx; apply H0, in_or_app; right; exact Hx|exact H1]|].
      intros s2 [[status media] headers] H2. apply R_ok, H2.
    - (* EXfer *)
      apply R_bind; [apply opt_st_cong; [intros ? x ->; apply Hc; left; reflexivity|exact Hs]|]. intros s1 dom H1.
      apply R_bind; [apply H0; [apply in_or_app; right; left; reflexivity|exact H1]|]. intros s2 rv H2. apply R_pure. intros rg _.
      apply R_map, opt_st_cong; [intros ? x ->; apply Hc, in_or_app; right; right; left; reflexivity|exact H2].
    - (* EUri *)
      apply R_bind.
      + apply map_st_cong; [|exact Hs]. intros ? [x|v] Hx Hs0; [apply R_ok, Hs0|].
        cbn [on_seg]. apply Hc; [|exact Hs0]. apply in_or_app. left. apply in_flat_map. exists (inr v). split; [exact Hx|left; reflexivity].
      + intros s1 path H1.
        apply R_map, opt_st_cong; [intros ? x ->; apply Hc, in_or_app; right; left; reflexivity|exact H1].
    - (* ERel *)
      apply R_bind; [apply H0; [left; reflexivity|exact Hs]|]. intros s1 uv H1. apply R_pure. intros ur _.
      apply R_map, map_st_cong; [intros ? x Hx; apply Hc; right; exact Hx|exact H1].
  Qed.
End Congruence.

(** All constructs, when the second state is the first with its scopes renamed by [rho]: [sm]
    commutes with each operation of [eval] on the state. *)
Section Hom.
  Variable sm : st -> st.
  Variable scm : scope -> scope.
  Variable rho : N -> N.
  Variable R : forall B, res (st * B) -> res (st * B) -> Prop.
  Arguments R {B}.
  Hypothesis R_ok : forall B t (v : B), R (Ok (t, v)) (Ok (sm t, v)).
  Hypothesis R_err : forall B x, @R B (Err x) (Err x).
  Hypothesis R_panic : forall B p, @R B (Panic p) (Panic p).
  Hypothesis R_fuel : forall B, @R B Fuel Fuel.
  Hypothesis R_bind : forall B C (r r' : res (st * B)) (k k' : st * B -> res (st * C)),
    R r r' -> (forall t v, R (k (t, v)) (k' (sm t, v))) -> R (bind r k) (bind r' k').
  Hypothesis SL : forall x s, lookup_binding (rho x) (scopes (sm s)) = lookup_binding x (scopes s).
  Hypothesis SR : forall s, refs (sm s) = refs s.
  Hypothesis SS : forall s r, set_refs (sm s) r = sm (set_refs s r).
  Hypothesis SPU : forall s sc, push_scope (sm s) (scm sc) = sm (push_scope s sc).
  Hypothesis SPO : forall s, pop_scope (sm s) = sm (pop_scope s).
  Hypothesis ST : forall s, top_scope_id (sm s) = top_scope_id s.
  Hypothesis SCI : forall p v sc, im_insert N.eqb (rho p) v (scm sc) = scm (im_insert N.eqb p v sc).
  Hypothesis SC0 : scm [] = [].
  Hypothesis SLX1 : forall s sc, mk_st (refs (sm s)) [(seq (sm s) + 1, scm sc)] (seq (sm s) + 1) = sm (mk_st (refs s) [(seq s + 1, sc)] (seq s + 1)).
  Hypothesis SLX2 : forall s3 s2, mk_st (refs (sm s3)) (scopes (sm s2)) (seq (sm s3)) = sm (mk_st (refs s3) (scopes s2) (seq s3)).

  Variables (lx : bool) (P P' : prog) (g : expr -> expr).
  Hypothesis HP : forall m i, get_decl P' m i = option_map (dmapr rho g) (get_decl P m i).
  Variable ok : ymap -> Prop.
  Hypothesis ok_nil : ok [].
  Hypothesis ok_extend : forall a b, ok a -> ok (extend a b).
  Lemma ok_compose anns : forall acc r, ok acc -> compose anns acc = Ok r -> ok r.
  Proof.
    induction anns as [|[a|] anns IH]; intros acc r H E; cbn [compose] in E; [injection E as <-; exact H| |discriminate E].
    apply (IH _ _ (ok_extend _ a H) E).
  Qed.
  Variables n n' : nat.
  Definition related (c : expr) : Prop := forall s a, ok a -> R (eval lx P n s c a) (eval lx P' n' (sm s) (g c) a).
  Hypothesis H_bodies : forall m i d, get_decl P m i = Some d -> related (d_rhs d).

  Theorem eval_hom e s a : (forall c, In c (subs e) -> related c) -> ok a ->
    R (eval lx P (S n) s e a) (eval lx P' (S n') (sm s) (emapr rho g e) a).
  Proof.
    intros Hsub Ha.
    assert (H0 : forall c, In c (subs e) -> forall s, always s -> R (eval lx P n s c []) (eval lx P' n' (sm s) (g c) []))
      by (intros c Hc s0 _; apply (Hsub c Hc), ok_nil).
    assert (R_ok' : forall B t (v : B), always t -> R (Ok (t, v)) (Ok (sm t, v))) by (intros; apply R_ok).
    assert (R_bind' : forall B C (r r' : res (st * B)) (k k' : st * B -> res (st * C)),
               R r r' -> (forall t v, always t -> R (k (t, v)) (k' (sm t, v))) -> R (bind r k) (bind r' k'))
      by (intros B C r r' k k' H Hk; apply R_bind; [exact H|intros; apply Hk; exact I]).
    destruct (is_struct e) eqn:Es.
    { rewrite (emapr_struct rho g e Es).
      apply (eval_struct sm always (@R) R_ok' R_err R_panic R_fuel R_bind'); [exact Es|exact I|exact H0]. }
    rewrite !eval_S. destruct e; try discriminate Es; clear Es; cbn [eval_step emapr emap]; cbn [subs] in Hsub, H0.
    - (* ETerm *) apply R_pure; try assumption. intros x _. apply Hsub; [left; reflexivity|apply ok_extend, Ha].
    - (* ESub *) apply Hsub; [left; reflexivity|exact Ha].
    - (* EDecl *)
      rewrite HP. destruct (get_decl P m i) as [d|] eqn:Ed; cbn [option_map]; [|apply R_panic].
      cbn [dmapr d_params d_anns d_ref d_rec d_rhs].
      destruct (d_params d); cbn [map]; [|apply R_ok].
      apply R_pure; try assumption. intros da Eda.
      assert (Hda : ok (extend da a)) by (apply ok_extend, (ok_compose _ _ _ ok_nil Eda)).
      destruct ((match d_ref d with Some _ => true | None => false end) || d_rec d); [|apply (H_bodies _ _ _ Ed), Hda].
      rewrite SR. destruct (rget _ (refs s)) as [[v|]|]; try apply R_ok.
      rewrite SS. apply R_bind; [apply (H_bodies _ _ _ Ed), Hda|]. intros s2 v. rewrite SR, SS. apply R_ok.
    - (* EBind *) rewrite SL. destruct (lookup_binding x (scopes s)) as [[v prev]|]; [apply R_ok|apply R_panic].
    - (* EApp *)
      apply R_bind; [apply H0; [left; reflexivity|exact I]|]. intros s1 fv. apply R_pure; try assumption. intros lam _.
      assert (Hb := app_builtin_cong sm always (@R) R_ok' R_err R_panic R_fuel R_bind' g
                      (fun s e => eval lx P n s e []) (fun s e => eval lx P' n' s e []) s1 args a I
                      (fun s0 c Hc => H0 c (or_intror Hc) s0)).
      apply (lam_case2 (@R _)); [clear Hb; intros m i|exact Hb].
      rewrite HP. destruct (get_decl P m i) as [d|] eqn:Ed; cbn [option_map]; [|apply R_panic].
      cbn [dmapr d_params d_anns d_ref d_rec d_rhs].
      apply (bind_args_cong sm always (@R) R_bind' g _ _ rho scm); [exact SCI|intros s0 c Hc; apply H0; right; exact Hc| |symmetry; exact SC0|exact I].
      intros s2 sc _. apply R_pure; try assumption. intros da Eda.
      assert (Hda : ok (extend da a)) by (apply ok_extend, (ok_compose _ _ _ ok_nil Eda)).
      assert (Hb := fun s => H_bodies _ _ _ Ed s _ Hda). rewrite !map_length. destruct lx.
      + destruct (Nat.ltb _ _); [apply R_panic|]. rewrite SLX1. apply R_bind; [apply Hb|]. intros s3 r. rewrite SLX2. apply R_ok.
      + rewrite SPU. apply R_bind; [apply Hb|]. intros s3 r. rewrite SPO. apply R_ok.
    - (* ERec *)
      rewrite ST.
      assert (E1 : forall v : aval, [(rho x, v)] = scm [(x, v)]).
      { intros v. change [(x, v)] with (im_insert N.eqb x v []). rewrite <- SCI, SC0. reflexivity. }
      rewrite E1, SPU. apply R_bind; [apply Hsub; [left; reflexivity|exact Ha]|]. intros s1 rhs.
      rewrite SPO, SR, SS. apply R_ok.
  Qed.
End Hom.

Lemma emapr_id g e : emapr (fun x => x) g e = emap g e.
Proof. destruct e; reflexivity. Qed.
Lemma dmapr_id g d : dmapr (fun x => x) g d = dmap g d.
Proof. unfold dmapr, dmap. rewrite map_id. reflexivity. Qed.

(** The same state on both sides: any relation that is reflexive and compatible with [bind]. *)
Section SameState.
  Variable R : forall A, res A -> res A -> Prop.
  Arguments R {A}.
  Hypothesis R_refl : forall A (r : res A), R r r.
  Hypothesis R_bind : forall A B (r r' : res A) (k k' : A -> res B),
    R r r' -> (forall x, R (k x) (k' x)) -> R (bind r k) (bind r' k').
  Variables (lx : bool) (P P' : prog) (g : expr -> expr).
  Hypothesis HP : forall m i, get_decl P' m i = option_map (dmap g) (get_decl P m i).

  (** what is known of the annotations passed down (InlineProofs needs their keys distinct) *)
  Variable ok : ymap -> Prop.
  Hypothesis ok_nil : ok [].
  Hypothesis ok_extend : forall a b, ok a -> ok (extend a b).
  Variables n n' : nat.

  Definition related_same (c : expr) : Prop :=
    forall s a, ok a -> R (eval lx P n s c a) (eval lx P' n' s (g c) a).

  Hypothesis H_bodies : forall m i d, get_decl P m i = Some d -> related_same (d_rhs d).

  Theorem eval_cong e s a : (forall c, In c (subs e) -> related_same c) -> ok a ->
    R (eval lx P (S n) s e a) (eval lx P' (S n') s (emap g e) a).
  Proof.
    intros Hsub Ha. rewrite <- emapr_id.
    (* with identities for the maps, every law about the state holds by computation *)
    apply (eval_hom (fun s => s) (fun sc => sc) (fun x => x) (fun B => @R (st * B))) with (ok := ok); try reflexivity; auto.
    - intros B C r r' k k' H Hk. apply R_bind; [exact H|]. intros [t v]. apply Hk.
    - intros m i. rewrite HP. destruct (get_decl P m i); cbn [option_map]; [rewrite dmapr_id|]; reflexivity.
  Qed.

  Theorem eval_program_cong rs : (forall c, In c rs -> related_same c) ->
    R (eval_program lx P n rs) (eval_program lx P' n' (map g rs)).
  Proof.
    intros Hrs. unfold eval_program. apply R_bind; [|intros [s1 rels]; apply R_refl].
    apply (map_st_cong (fun s => s) always (fun B => @R (st * B))); [auto| |intros ? ? Hx _|exact I].
    - intros B C r r' k k' H Hk. apply R_bind; [exact H|]. intros [t v]. apply Hk, I.
    - apply R_bind; [apply (Hrs _ Hx), ok_nil|]. intros [s1 v]. apply R_refl.
  Qed.
End SameState.
