(** Proofs about Model/Position.v (property C16). *)
From Coq Require Import Lia PeanoNat.
From Oal Require Import Text Position.

(** arithmetic on N is for [lia]: [cbn] must not unfold it into matches on binary digits *)
Arguments N.add : simpl never.
Arguments N.sub : simpl never.
Arguments N.eqb : simpl never.
Arguments N.ltb : simpl never.
Arguments N.leb : simpl never.

Lemma len8_pos c : 1 <= len8 c.
Proof. unfold len8. repeat (destruct (N.ltb _ _)); lia. Qed.

Lemma len16_pos c : 1 <= len16 c.
Proof. unfold len16. destruct (N.ltb _ _); lia. Qed.

Lemma len8_lf c : is_lf c = true -> len8 c = 1.
Proof. unfold is_lf, LF. intros H. apply N.eqb_eq in H. subst. reflexivity. Qed.

Lemma len8s_app a b : len8s (a ++ b) = len8s a + len8s b.
Proof. induction a as [|c a IH]; cbn [len8s app]; lia. Qed.

Lemma len16s_app a b : len16s (a ++ b) = len16s a + len16s b.
Proof. induction a as [|c a IH]; cbn [len16s app]; lia. Qed.

Lemma count_lf_app a b : count_lf (a ++ b) = count_lf a + count_lf b.
Proof. induction a as [|c a IH]; cbn [count_lf app]; lia. Qed.

Lemma count_lf_before c t : (if is_lf c then count_lf (c :: t) - 1 else count_lf (c :: t)) = count_lf t.
Proof. cbn [count_lf]. destruct (is_lf c); lia. Qed.

Lemma last_line_nolf t : count_lf t = 0 -> last_line t = t.
Proof. destruct t as [|c t]; [reflexivity|]. intros H. cbn [last_line]. rewrite H. reflexivity. Qed.

Lemma last_line_cons c t :
  count_lf (c :: t) <> 0 -> last_line (c :: t) = last_line t.
Proof. intros H. cbn [last_line]. destruct (N.eqb_spec (count_lf (c :: t)) 0); [contradiction|reflexivity]. Qed.

(* the LSP position of the end of [pre]: lines before it, UTF-16 units on its last line *)
Definition pos_of (pre : text) : N * N := (count_lf pre, len16s (last_line pre)).

(** the column after [pre] of a scan that entered it at column [ch] *)
Definition pc_of (pre : text) (ch : N) : N :=
  (if N.eqb (count_lf pre) 0 then ch else 0) + len16s (last_line pre).

Lemma pc_of_cons c pre ch :
  pc_of (c :: pre) ch = pc_of pre (if is_lf c then 0 else ch + len16 c).
Proof.
  unfold pc_of. cbn [last_line count_lf]. destruct (is_lf c).
  - destruct (N.eqb_spec (1 + count_lf pre) 0); [lia|]. destruct (N.eqb _ 0); reflexivity.
  - rewrite N.add_0_l. destruct (N.eqb_spec (count_lf pre) 0) as [E|_]; [|reflexivity].
    rewrite (last_line_nolf _ E). cbn [len16s]. lia.
Qed.

Lemma u2p_go_prefix pre : forall suf line ch idx,
  u2p_go (pre ++ suf) (idx + len8s pre) line ch idx = (line + count_lf pre, pc_of pre ch).
Proof.
  induction pre as [|c pre IH]; intros suf line ch idx; cbn [app len8s count_lf].
  - change (pc_of [] ch) with (ch + 0). rewrite !N.add_0_r.
    destruct suf; cbn [u2p_go]; [|rewrite N.leb_refl]; reflexivity.
  - cbn [u2p_go]. pose proof (len8_pos c).
    destruct (N.leb_spec (idx + (len8 c + len8s pre)) idx) as [Hle|_]; [lia|].
    rewrite N.add_assoc, pc_of_cons. destruct (is_lf c); rewrite IH; f_equal; lia.
Qed.

Lemma utf8_to_position_boundary pre suf :
  utf8_to_position (pre ++ suf) (len8s pre) = pos_of pre.
Proof.
  unfold utf8_to_position, pos_of.
  pose proof (u2p_go_prefix pre suf 0 0 0) as H.
  rewrite N.add_0_l in H. rewrite H. unfold pc_of. destruct (N.eqb _ 0); reflexivity.
Qed.

Lemma split_lines_nonempty t : exists l ls, split_lines t = l :: ls.
Proof.
  induction t as [|c t [l [ls IH]]]; cbn [split_lines]; [eauto|].
  rewrite IH. destruct (is_lf c); eauto.
Qed.

Lemma split_lines_length t : N.of_nat (length (split_lines t)) = count_lf t + 1.
Proof.
  induction t as [|c t IH]; [reflexivity|].
  cbn [split_lines count_lf]. destruct (split_lines_nonempty t) as [l [ls E]]. rewrite E in *.
  destruct (is_lf c); cbn [length] in *; lia.
Qed.

Lemma split_lines_len8s t :
  fold_right (fun l acc => len8s l + 1 + acc) 0 (split_lines t) = len8s t + 1.
Proof.
  induction t as [|c t IH]; [reflexivity|].
  cbn [split_lines]. destruct (split_lines_nonempty t) as [l [ls E]]. rewrite E in *.
  destruct (is_lf c) eqn:Elf; cbn [fold_right len8s] in *; [rewrite (len8_lf _ Elf)|]; lia.
Qed.

Lemma spec_go_cons l ls pl pc :
  spec_go (l :: ls) pl pc =
  if N.eqb pl 0 then col8 (content l) pc
  else match ls with [] => len8s l | _ :: _ => len8s l + 1 + spec_go ls (pl - 1) pc end.
Proof. reflexivity. Qed.

Lemma col8_0 l : col8 l 0 = 0.
Proof. destruct l; cbn [col8]; [reflexivity|]. rewrite N.eqb_refl. reflexivity. Qed.

(* the first line of [t], its line feed excluded *)
Definition line1 (t : text) : text := match split_lines t with l :: _ => l | [] => [] end.

Lemma line1_cons c t :
  line1 (c :: t) = if is_lf c then [] else c :: line1 t.
Proof.
  unfold line1. cbn [split_lines]. destruct (split_lines_nonempty t) as [l [ls E]].
  rewrite E. destruct (is_lf c); reflexivity.
Qed.

(** the reference by recursion on the text: all that the rest of the file uses of
    [split_lines] and [spec_go], except for monotonicity ([spec_go_mono]) *)
Lemma pos_spec_nil pl pc : pos_spec [] pl pc = 0.
Proof. unfold pos_spec. cbn. destruct (N.eqb pl 0); reflexivity. Qed.

Lemma pos_spec_0 t pc : pos_spec t 0 pc = col8 (content (line1 t)) pc.
Proof.
  unfold pos_spec, line1. destruct (split_lines_nonempty t) as [l [ls E]]. rewrite E. reflexivity.
Qed.

Lemma pos_spec_cons c t pl pc : pl <> 0 ->
  pos_spec (c :: t) pl pc = len8 c + pos_spec t (if is_lf c then pl - 1 else pl) pc.
Proof.
  intros Hpl. unfold pos_spec. cbn [split_lines].
  destruct (split_lines_nonempty t) as [l [ls E]]. rewrite E.
  destruct (is_lf c) eqn:Elf; cbn [spec_go]; destruct (N.eqb_spec pl 0) as [E0|_]; try contradiction.
  - rewrite (len8_lf _ Elf). cbn [len8s]. lia.
  - destruct ls; cbn [len8s]; lia.
Qed.

(** on the target line ([pc - ch] is truncated subtraction: at or past the column the scan stops) *)
Lemma p2u_on_line t : forall pl pc ch idx,
  p2u_go t pl pc pl ch idx = idx + col8 (content (line1 t)) (pc - ch).
Proof.
  induction t as [|c t IH]; intros pl pc ch idx.
  - cbn. lia.
  - cbn [p2u_go]. rewrite N.eqb_refl, line1_cons.
    destruct (N.leb_spec pc ch) as [E|Ene].
    { replace (pc - ch) with 0 by lia. rewrite col8_0. cbn [orb]. lia. }
    cbn [orb].
    destruct (is_lf c) eqn:Elf; cbn [orb]; [cbn; lia|].
    destruct (is_cr c) eqn:Ecr; cbn [orb content]; rewrite ?Ecr; [cbn; lia|].
    cbn [col8]. destruct (N.eqb_spec (pc - ch) 0) as [E|_]; [lia|].
    rewrite IH, N.sub_add_distr. lia.
Qed.

Lemma p2u_go_spec t : forall pl pc line idx,
  line <= pl ->
  p2u_go t pl pc line 0 idx = idx + pos_spec t (pl - line) pc.
Proof.
  induction t as [|c t IH]; intros pl pc line idx Hle.
  - rewrite pos_spec_nil. cbn. lia.
  - destruct (N.eq_dec line pl) as [->|Hne].
    + rewrite p2u_on_line, N.sub_diag, N.sub_0_r, pos_spec_0. reflexivity.
    + cbn [p2u_go]. destruct (N.eqb_spec line pl) as [E|_]; [contradiction|].
      rewrite pos_spec_cons by lia.
      destruct (is_lf c); rewrite IH by lia; [replace (pl - (line + 1)) with (pl - line - 1) by lia|]; lia.
Qed.

Theorem position_to_utf8_spec t pl pc : position_to_utf8 t pl pc = pos_spec t pl pc.
Proof.
  unfold position_to_utf8. rewrite p2u_go_spec by lia. rewrite N.sub_0_r. apply N.add_0_l.
Qed.

(** whole lines before the target line are skipped *)
Lemma pos_spec_app a : forall rest pl pc,
  count_lf a < pl ->
  pos_spec (a ++ rest) pl pc = len8s a + pos_spec rest (pl - count_lf a) pc.
Proof.
  induction a as [|c a IH]; intros rest pl pc Hlt; cbn [app count_lf len8s] in *.
  - rewrite N.sub_0_r. reflexivity.
  - rewrite pos_spec_cons by lia. destruct (is_lf c); rewrite IH by lia.
    + replace (pl - 1 - count_lf a) with (pl - (1 + count_lf a)) by lia. lia.
    + rewrite N.add_0_l. lia.
Qed.

Theorem clamp_text_end t pl pc : count_lf t < pl -> position_to_utf8 t pl pc = len8s t.
Proof.
  intros H. rewrite position_to_utf8_spec, <- (app_nil_r t), pos_spec_app by exact H.
  rewrite pos_spec_nil, app_nil_r. apply N.add_0_r.
Qed.

(** on the line that starts after [a], the offset is a column of the line's content *)
Lemma position_on_line a rest pc :
  (a = [] \/ exists a', a = a' ++ [LF]) ->
  position_to_utf8 (a ++ rest) (count_lf a) pc = len8s a + col8 (content (line1 rest)) pc.
Proof.
  rewrite position_to_utf8_spec. intros [->|[a' ->]]; [apply pos_spec_0|].
  rewrite <- app_assoc, count_lf_app, len8s_app. change (count_lf [LF]) with 1. change (len8s [LF]) with 1.
  rewrite pos_spec_app by lia. replace (count_lf a' + 1 - count_lf a') with 1 by lia.
  cbn [app]. rewrite pos_spec_cons by lia. change (is_lf LF) with true. cbv iota.
  change (len8 LF) with 1. rewrite N.sub_diag, pos_spec_0. lia.
Qed.

Lemma col8_app p : forall l k, col8 (p ++ l) (len16s p + k) = len8s p + col8 l k.
Proof.
  induction p as [|c p IH]; intros l k; cbn [app len16s len8s col8].
  - rewrite !N.add_0_l. reflexivity.
  - pose proof (len16_pos c).
    destruct (N.eqb_spec (len16 c + len16s p + k) 0) as [E|_]; [lia|].
    replace (len16 c + len16s p + k - len16 c) with (len16s p + k) by lia. rewrite IH. lia.
Qed.

Lemma col8_exact p q : col8 (p ++ q) (len16s p) = len8s p.
Proof. rewrite <- (N.add_0_r (len16s p)), col8_app, col8_0. apply N.add_0_r. Qed.

Lemma col8_beyond l : forall k, len16s l <= k -> col8 l k = len8s l.
Proof.
  induction l as [|c l IH]; intros k Hk; cbn [col8 len8s len16s] in *; [reflexivity|].
  pose proof (len16_pos c).
  destruct (N.eqb_spec k 0) as [E|_]; [lia|].
  rewrite IH by lia. reflexivity.
Qed.

Lemma col8_mono l : forall j k, j <= k -> col8 l j <= col8 l k.
Proof.
  induction l as [|c l IH]; intros j k Hjk; cbn [col8]; [lia|].
  destruct (N.eqb_spec j 0) as [->|Hj].
  - destruct (N.eqb k 0); lia.
  - destruct (N.eqb_spec k 0) as [->|Hk]; [lia|]. specialize (IH (j - len16 c) (k - len16 c)). lia.
Qed.

Lemma col8_le_len8s l k : col8 l k <= len8s l.
Proof. rewrite <- (col8_beyond l (k + len16s l)) by lia. apply col8_mono. lia. Qed.

Fixpoint no_cr (t : text) : bool :=
  match t with [] => true | c :: t' => negb (is_cr c) && no_cr t' end.

(** the shape "text = A ++ L ++ R" where A holds exactly the first [pl] lines
    with their terminators, L is the content of line [pl] and R starts with the
    line terminator (or is empty) *)
Definition line_shape (a l r : text) : Prop :=
  (a = [] \/ exists a', a = a' ++ [LF]) /\
  no_cr l = true /\ count_lf l = 0 /\
  match r with [] => True | c :: _ => is_lf c = true \/ is_cr c = true end.

Lemma content_line1_app l : forall r,
  no_cr l = true -> count_lf l = 0 ->
  content (line1 (l ++ r)) = l ++ content (line1 r).
Proof.
  induction l as [|c l IH]; intros r Hcr Hlf; [reflexivity|].
  cbn [app]. rewrite line1_cons.
  cbn [no_cr] in Hcr. apply andb_true_iff in Hcr. destruct Hcr as [Hc Hcr].
  apply negb_true_iff in Hc. cbn [count_lf] in Hlf.
  destruct (is_lf c); [lia|].
  cbn [content]. rewrite Hc. f_equal. apply IH; [assumption|lia].
Qed.

Lemma line_column a l r pc :
  line_shape a l r ->
  position_to_utf8 (a ++ l ++ r) (count_lf a) pc = len8s a + col8 l pc.
Proof.
  intros (Ha & Hcr & Hlf & Hr).
  rewrite position_on_line by exact Ha. rewrite content_line1_app by assumption.
  replace (content (line1 r)) with (@nil N); [rewrite app_nil_r; reflexivity|].
  destruct r as [|d r]; [reflexivity|]. rewrite line1_cons.
  destruct (is_lf d); [reflexivity|]. destruct Hr as [Hd|Hd]; [discriminate|].
  cbn [content]. rewrite Hd. reflexivity.
Qed.

Theorem exact_column a p q r :
  line_shape a (p ++ q) r ->
  position_to_utf8 (a ++ (p ++ q) ++ r) (count_lf a) (len16s p) = len8s a + len8s p.
Proof. intros H. rewrite (line_column _ _ _ _ H), col8_exact. reflexivity. Qed.

(** a column beyond the end of the line is clamped to the end of its content
    (before the CR of a CRLF terminator) *)
Theorem clamp_line_end a l r pc :
  line_shape a l r -> len16s l <= pc ->
  position_to_utf8 (a ++ l ++ r) (count_lf a) pc = len8s a + len8s l.
Proof. intros H Hpc. rewrite (line_column _ _ _ _ H), col8_beyond by exact Hpc. reflexivity. Qed.

(** F5 (fixed): a column strictly inside a surrogate pair is rounded up to the end of that
    character, so that positions stay monotone; before the fix it ran to the end of the line *)
Theorem mid_surrogate_rounds_up a p c q r :
  line_shape a (p ++ c :: q) r -> len16 c = 2 ->
  position_to_utf8 (a ++ (p ++ c :: q) ++ r) (count_lf a) (len16s p + 1)
  = len8s a + len8s (p ++ [c]).
Proof.
  intros H Hc. rewrite (line_column _ _ _ _ H), col8_app, len8s_app. cbn [col8 len8s].
  change (N.eqb 1 0) with false. cbv iota.
  rewrite Hc. change (1 - 2) with 0. rewrite col8_0. reflexivity.
Qed.

Definition ends_cr (pre : text) : bool :=
  match rev pre with c :: _ => is_cr c | [] => false end.

Definition starts_lf (suf : text) : bool :=
  match suf with c :: _ => is_lf c | [] => false end.

(** offset [len8s pre] lies strictly inside a CRLF pair *)
Definition inside_crlf (pre suf : text) : bool := ends_cr pre && starts_lf suf.

Lemma crlf_wf_app_inv a b : crlf_wf (a ++ b) = true -> crlf_wf b = true.
Proof.
  induction a as [|c a IH]; [trivial|].
  cbn [app crlf_wf]. intros H. apply andb_true_iff in H. apply IH, H.
Qed.

(** a CR in a line would have to be followed by LF *)
Lemma no_cr_line l : forall a suf,
  count_lf l = 0 -> crlf_wf (l ++ suf) = true -> inside_crlf (a ++ l) suf = false ->
  no_cr l = true.
Proof.
  induction l as [|c l IH]; intros a suf Hlf Hwf Hin; [reflexivity|].
  cbn [count_lf] in Hlf. cbn [app crlf_wf] in Hwf. apply andb_true_iff in Hwf. destruct Hwf as [Hc Hwf].
  cbn [no_cr]. apply andb_true_iff. split.
  - destruct (is_cr c) eqn:Ecr; [exfalso|reflexivity]. destruct l as [|d l]; cbn [app count_lf] in *.
    + unfold inside_crlf, ends_cr in Hin. rewrite rev_app_distr in Hin. cbn [rev app] in Hin.
      rewrite Ecr in Hin. cbn [andb] in Hin. unfold starts_lf in Hin. destruct suf; congruence.
    + rewrite Hc in Hlf. lia.
  - apply (IH (a ++ [c]) suf); [destruct (is_lf c); lia|exact Hwf|]. rewrite <- app_assoc. exact Hin.
Qed.

(** [a] is the text the induction has passed: [inside_crlf] needs the character before the boundary *)
Lemma pos_spec_boundary pre : forall a suf,
  crlf_wf (pre ++ suf) = true -> inside_crlf (a ++ pre) suf = false ->
  pos_spec (pre ++ suf) (count_lf pre) (len16s (last_line pre)) = len8s pre.
Proof.
  induction pre as [|c pre IH]; intros a suf Hwf Hin.
  - rewrite pos_spec_0. apply col8_0.
  - destruct (N.eqb_spec (count_lf (c :: pre)) 0) as [E|E].
    + rewrite E, (last_line_nolf _ E), pos_spec_0, content_line1_app, col8_exact; [reflexivity| |exact E].
      exact (no_cr_line _ a suf E Hwf Hin).
    + rewrite (last_line_cons _ _ E). cbn [app]. rewrite pos_spec_cons by exact E.
      rewrite count_lf_before, (IH (a ++ [c]) suf); [reflexivity| |rewrite <- app_assoc; exact Hin].
      exact (crlf_wf_app_inv [c] _ Hwf).
Qed.

Lemma position_of_boundary pre suf :
  crlf_wf (pre ++ suf) = true -> inside_crlf pre suf = false ->
  position_to_utf8 (pre ++ suf) (fst (pos_of pre)) (snd (pos_of pre)) = len8s pre.
Proof. rewrite position_to_utf8_spec. apply (pos_spec_boundary pre []). Qed.

Theorem roundtrip pre suf :
  crlf_wf (pre ++ suf) = true ->
  inside_crlf pre suf = false ->
  let t := pre ++ suf in
  let p := utf8_to_position t (len8s pre) in
  position_to_utf8 t (fst p) (snd p) = len8s pre.
Proof.
  intros Hwf Hin t p. subst p t. rewrite utf8_to_position_boundary.
  apply position_of_boundary; assumption.
Qed.

(** K7: the one boundary class where the round trip fails *)
Lemma roundtrip_crlf_refuted :
  exists pre suf,
    crlf_wf (pre ++ suf) = true /\ inside_crlf pre suf = true /\
    let t := pre ++ suf in
    let p := utf8_to_position t (len8s pre) in
    position_to_utf8 t (fst p) (snd p) <> len8s pre.
Proof. exists [CR], [LF]. vm_compute. repeat split; discriminate. Qed.

Lemma len8s_content_le l : len8s (content l) <= len8s l.
Proof.
  induction l as [|c l IH]; cbn [content len8s]; [lia|].
  destruct (is_cr c); cbn [len8s]; lia.
Qed.

Definition pos_le (l c l' c' : N) : Prop := l < l' \/ (l = l' /\ c <= c').

Lemma spec_go_mono ls : forall pl pc pl' pc',
  pos_le pl pc pl' pc' -> spec_go ls pl pc <= spec_go ls pl' pc'.
Proof.
  induction ls as [|l ls IH]; intros pl pc pl' pc' H; cbn [spec_go]; [lia|].
  destruct (N.eqb_spec pl 0) as [->|Hn]; destruct (N.eqb_spec pl' 0) as [->|Hn'].
  - apply col8_mono. destruct H as [H|[_ H]]; [lia|exact H].
  - pose proof (col8_le_len8s (content l) pc). pose proof (len8s_content_le l). destruct ls; lia.
  - destruct H as [H|[H _]]; lia.
  - destruct ls as [|l2 ls]; [lia|].
    assert (H' : pos_le (pl - 1) pc (pl' - 1) pc') by (unfold pos_le in *; lia).
    specialize (IH _ _ _ _ H'). lia.
Qed.

(** a later position never maps to an earlier offset (what String::replace_range needs of
    a change range) *)
Theorem position_mono t l c l' c' :
  pos_le l c l' c' -> position_to_utf8 t l c <= position_to_utf8 t l' c'.
Proof. intros H. rewrite !position_to_utf8_spec. unfold pos_spec. apply spec_go_mono, H. Qed.

Theorem position_mono_in_line t pl j k : j <= k -> position_to_utf8 t pl j <= position_to_utf8 t pl k.
Proof. intros H. apply position_mono. right. split; [reflexivity|exact H]. Qed.

Lemma utf16_app a b : utf16 (a ++ b) = utf16 a ++ utf16 b.
Proof. induction a as [|c a IH]; cbn [app utf16]; [reflexivity|]. rewrite IH, app_assoc. reflexivity. Qed.

Lemma utf16_length t : N.of_nat (length (utf16 t)) = len16s t.
Proof.
  induction t as [|c t IH]; [reflexivity|].
  cbn [utf16 len16s]. rewrite app_length. unfold units16, len16.
  destruct (N.ltb c 65536); cbn [length]; lia.
Qed.

Lemma client_off16_0 u c off : client_off16 u 0 c off = off + c.
Proof. destruct u; reflexivity. Qed.

(** a character is one or two units, and none of them is a line feed unless the
    character is *)
Lemma client_off16_char x u l c off : l <> 0 ->
  client_off16 (units16 x ++ u) l c off
  = client_off16 u (if is_lf x then l - 1 else l) c (off + len16 x).
Proof.
  intros Hl. apply N.eqb_neq in Hl. unfold units16, len16, is_lf.
  destruct (N.ltb_spec x 65536) as [Hb|Ha]; cbn [app client_off16]; rewrite Hl; [reflexivity|].
  destruct (N.eqb_spec (55296 + N.shiftr (x - 65536) 10) LF) as [E|_]; [unfold LF in E; lia|].
  destruct (N.eqb_spec (56320 + N.land (x - 65536) 1023) LF) as [E|_]; [unfold LF in E; lia|].
  destruct (N.eqb_spec x LF) as [E|_]; [unfold LF in E; lia|]. rewrite Hl, <- N.add_assoc. reflexivity.
Qed.

Lemma client_off16_prefix pre : forall rest c off,
  client_off16 (utf16 pre ++ rest) (count_lf pre) c off + len16s (last_line pre)
  = off + len16s pre + c.
Proof.
  induction pre as [|x pre IH]; intros rest c off.
  - cbn [utf16 app count_lf last_line len16s]. rewrite client_off16_0. lia.
  - destruct (N.eqb_spec (count_lf (x :: pre)) 0) as [E0|E0].
    + rewrite E0, client_off16_0, (last_line_nolf _ E0). lia.
    + rewrite (last_line_cons _ _ E0). cbn [utf16]. rewrite <- app_assoc, client_off16_char by exact E0.
      rewrite count_lf_before. cbn [len16s]. specialize (IH rest c (off + len16 x)). lia.
Qed.

Lemma client_off16_boundary pre suf :
  client_off16 (utf16 (pre ++ suf)) (fst (pos_of pre)) (snd (pos_of pre)) 0 = len16s pre.
Proof.
  rewrite utf16_app. unfold pos_of. cbn [fst snd].
  pose proof (client_off16_prefix pre (utf16 suf) (len16s (last_line pre)) 0). lia.
Qed.

(** the client selects exactly the span's UTF-16 units *)
Theorem range_selects_span a b c :
  let t := a ++ b ++ c in
  let r := utf8_range_to_position t (len8s a) (len8s (a ++ b)) in
  select16 (utf16 t) (fst r) (snd r) = utf16 b.
Proof.
  intros t r. subst r t. unfold utf8_range_to_position. cbn [fst snd].
  rewrite utf8_to_position_boundary.
  rewrite app_assoc. rewrite utf8_to_position_boundary. rewrite <- app_assoc.
  unfold select16.
  rewrite client_off16_boundary.
  rewrite (app_assoc a b c). rewrite client_off16_boundary. rewrite <- app_assoc.
  rewrite len16s_app. replace (len16s a + len16s b - len16s a) with (len16s b) by lia.
  rewrite !utf16_app.
  rewrite <- (utf16_length a), <- (utf16_length b). rewrite !Nnat.Nat2N.id.
  rewrite skipn_app, skipn_all, Nat.sub_diag. cbn [skipn app].
  rewrite firstn_app, firstn_all, Nat.sub_diag. cbn [firstn]. apply app_nil_r.
Qed.

(** the position sent for a boundary stays inside its line, so a client that
    clamps columns to the line length reads it unchanged; the line here includes a
    CR that directly precedes the boundary (the offsets of K7) *)
Theorem position_inside_line pre suf :
  snd (utf8_to_position (pre ++ suf) (len8s pre)) = len16s (last_line pre)
  /\ fst (utf8_to_position (pre ++ suf) (len8s pre)) = count_lf pre.
Proof. rewrite utf8_to_position_boundary. split; reflexivity. Qed.

(** any offset (boundary or not): the number of characters that start before it *)
Fixpoint starts_before (t : text) (i idx : N) : N :=
  match t with
  | [] => 0
  | c :: t' => (if N.ltb idx i then 1 else 0) + starts_before t' i (idx + len8 c)
  end.

Lemma starts_before_ge t : forall i idx, i <= idx -> starts_before t i idx = 0.
Proof.
  induction t as [|c t IH]; intros i idx H; cbn [starts_before]; [reflexivity|].
  destruct (N.ltb_spec idx i); [lia|]. pose proof (len8_pos c). rewrite IH by lia. reflexivity.
Qed.

Theorem char_index_counts t : forall i idx ci,
  u2c_go t i idx ci = ci + starts_before t i idx.
Proof.
  induction t as [|c t IH]; intros i idx ci; cbn [u2c_go starts_before]; [lia|].
  destruct (N.leb_spec i idx) as [H|H].
  - destruct (N.ltb_spec idx i); [lia|]. pose proof (len8_pos c).
    rewrite starts_before_ge by lia. lia.
  - destruct (N.ltb_spec idx i); [|lia]. rewrite IH. lia.
Qed.

Lemma starts_before_prefix pre : forall suf idx,
  starts_before (pre ++ suf) (idx + len8s pre) idx = N.of_nat (length pre).
Proof.
  induction pre as [|c pre IH]; intros suf idx; cbn [app len8s length].
  - apply starts_before_ge. lia.
  - cbn [starts_before]. pose proof (len8_pos c).
    destruct (N.ltb_spec idx (idx + (len8 c + len8s pre))); [|lia].
    rewrite N.add_assoc, IH. lia.
Qed.

Lemma starts_before_le t : forall i idx, starts_before t i idx <= N.of_nat (length t).
Proof.
  induction t as [|c t IH]; intros i idx; cbn [starts_before length]; [lia|].
  specialize (IH i (idx + len8 c)). destruct (N.ltb idx i); lia.
Qed.

Lemma starts_before_mono t : forall i j idx, i <= j -> starts_before t i idx <= starts_before t j idx.
Proof.
  induction t as [|c t IH]; intros i j idx Hij; cbn [starts_before]; [lia|].
  specialize (IH i j (idx + len8 c) Hij).
  destruct (N.ltb_spec idx i); destruct (N.ltb_spec idx j); lia.
Qed.

Theorem char_index_boundary pre suf :
  utf8_to_char_index (pre ++ suf) (len8s pre) = N.of_nat (length pre).
Proof.
  unfold utf8_to_char_index. rewrite char_index_counts, <- (N.add_0_l (len8s pre)). apply starts_before_prefix.
Qed.

Theorem char_index_bound t i : utf8_to_char_index t i <= N.of_nat (length t).
Proof. unfold utf8_to_char_index. rewrite char_index_counts. apply starts_before_le. Qed.

Theorem char_index_mono t i j : i <= j -> utf8_to_char_index t i <= utf8_to_char_index t j.
Proof. intros H. unfold utf8_to_char_index. rewrite !char_index_counts. apply starts_before_mono, H. Qed.

(** the character span of a byte span whose ends are character boundaries counts exactly the
    characters before it and the characters in it *)
Theorem char_span_exact pre mid suf :
  char_span (pre ++ mid ++ suf) (len8s pre) (len8s (pre ++ mid)) = (N.of_nat (length pre), N.of_nat (length pre + length mid)).
Proof.
  unfold char_span. rewrite char_index_boundary. f_equal.
  rewrite app_assoc, char_index_boundary, app_length. reflexivity.
Qed.
