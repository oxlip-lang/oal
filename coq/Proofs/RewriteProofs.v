(** Rewrite invariance at the level of name resolution (property C05): parenthesising and
    consistent (injective) renaming of identifiers leave the binding relation unchanged. *)
From Oal Require Import Resolve ResolveProofs.

(** a parenthesised expression is a node with one child *)
Theorem paren_resolution en t : lex en (RNode [t]) = lex en t.
Proof. cbn [lex seq_results]. destruct (lex en t) as [ds|e]; [rewrite app_nil_r|]; reflexivity. Qed.

Section Alpha.
Variable f : N -> N.
Hypothesis f_inj : forall a b, f a = f b -> a = b.

Definition ren_entry (e : entry) : entry := (f (fst e), option_map f (snd e)).
Definition ren_scope (s : scope) : scope := map (fun p => (ren_entry (fst p), snd p)) s.
Definition ren_env (en : env) : env := map ren_scope en.

Fixpoint ren (t : rtree) : rtree :=
  match t with
  | RVar u q x => RVar u (option_map f q) (f x)
  | RRec bind b body => RRec bind (f b) (ren body)
  | RNode cs => RNode (map ren cs)
  end.

Lemma N_eqb_inj a b : N.eqb (f a) (f b) = N.eqb a b.
Proof.
  destruct (N.eqb_spec a b) as [->|H]; [apply N.eqb_refl|].
  apply N.eqb_neq. intros E. apply H, f_inj, E.
Qed.

Lemma ren_entry_eqb a b : entry_eqb (ren_entry a) (ren_entry b) = entry_eqb a b.
Proof.
  destruct a as [x [q|]], b as [y [r|]]; unfold entry_eqb, ren_entry; cbn; rewrite ?N_eqb_inj; reflexivity.
Qed.

Lemma ren_sc_get e s : sc_get (ren_entry e) (ren_scope s) = sc_get e s.
Proof.
  induction s as [|[e' d] s IH]; cbn [ren_scope map sc_get fst snd]; [reflexivity|].
  rewrite ren_entry_eqb. destruct (entry_eqb e e'); [reflexivity|exact IH].
Qed.

Lemma ren_lookup e en : lookup (ren_entry e) (ren_env en) = lookup e en.
Proof.
  induction en as [|s en IH]; cbn [ren_env map lookup]; [reflexivity|].
  rewrite ren_sc_get. destruct (sc_get e s); [reflexivity|exact IH].
Qed.

Theorem alpha_resolution : forall t en, lex (ren_env en) (ren t) = lex en t.
Proof.
  induction t as [u q x|bind b body IH|cs IH] using rtree_ind'; intros en.
  - cbn [ren lex]. change (f x, option_map f q) with (ren_entry (x, q)). rewrite ren_lookup. reflexivity.
  - cbn [ren lex]. specialize (IH ([((b, None), DExt bind)] :: en)). cbn in IH. exact IH.
  - cbn [ren lex]. induction IH as [|c cs Hc _ IHcs]; cbn [map seq_results]; [reflexivity|].
    rewrite Hc. destruct (lex en c); [|reflexivity]. rewrite IHcs. reflexivity.
Qed.
End Alpha.

Corollary alpha_walk f (f_inj : forall a b, f a = f b -> a = b) t en :
  run (linearize (ren f t)) (ren_env f en) [] =
  match lex en t with inl ds => inl (ren_env f en, ds) | inr e => inr e end.
Proof.
  rewrite run_tree, (alpha_resolution f f_inj). destruct (lex en t); reflexivity.
Qed.
