(** Nothing declared in the ranges of a transfer is dropped by the emitter (property C02,
    responses part): every (status, media type) content with a schema is found under its
    status and media type, unless a later entry has the same status and the same effective
    media type (K20). *)
From Oal Require Import Responses.

Lemma get_set_same {A} k (v : A) m : get k (set k v m) = Some v.
Proof.
  induction m as [|[k' v'] m IH]; cbn [set get]; [rewrite N.eqb_refl; reflexivity|].
  destruct (N.eqb k k') eqn:E; cbn [get]; rewrite ?N.eqb_refl, ?E; auto.
Qed.

Lemma get_set_other {A} k k' (v : A) m : k <> k' -> get k (set k' v m) = get k m.
Proof.
  intros Hne. apply N.eqb_neq in Hne. induction m as [|[k2 v2] m IH]; cbn [set get]; [rewrite Hne; reflexivity|].
  destruct (N.eqb_spec k' k2) as [<-|_]; cbn [get]; [rewrite Hne; reflexivity|].
  destruct (N.eqb k k2); [reflexivity|exact IH].
Qed.

Lemma skey_eqb_refl k : skey_eqb k k = true.
Proof. destruct k; cbn; [apply N.eqb_refl|reflexivity]. Qed.

Lemma skey_eqb_eq a b : skey_eqb a b = true -> a = b.
Proof. destruct a, b; cbn; intros H; try discriminate; [apply N.eqb_eq in H; congruence|reflexivity]. Qed.

Lemma rget_rset_same k v m : rget k (rset k v m) = Some v.
Proof.
  induction m as [|[k' v'] m IH]; cbn [rset rget]; [rewrite skey_eqb_refl; reflexivity|].
  destruct (skey_eqb k k') eqn:E; cbn [rget]; rewrite ?skey_eqb_refl, ?E; auto.
Qed.

Lemma rget_rset_other k k' v m : skey_eqb k k' = false -> rget k (rset k' v m) = rget k m.
Proof.
  intros Hne. induction m as [|[k2 v2] m IH]; cbn [rset rget]; [rewrite Hne; reflexivity|].
  destruct (skey_eqb k' k2) eqn:E; cbn [rget].
  - apply skey_eqb_eq in E. subst. rewrite Hne. reflexivity.
  - destruct (skey_eqb k k2); [reflexivity|exact IH].
Qed.

(** the schema found under status [st] and media type [m] *)
Definition found (acc : list (skey * response)) (st : skey) (m : N) : option N :=
  match rget st acc with Some r => get m (r_content r) | None => None end.

(** an entry collides with (st, m) when it has that status, that effective media type and a schema *)
Definition collides (st : skey) (m : N) (e : entry) : bool :=
  let '((st', md'), c') := e in
  skey_eqb st st' && N.eqb m (eff md') && match c_schema c' with Some _ => true | None => false end.

Lemma found_step acc e st m :
  found (step acc e) st m = if collides st m e then c_schema (snd e) else found acc st m.
Proof.
  destruct e as [[st' md'] c']. unfold found, step, collides. cbn [snd].
  destruct (skey_eqb st st') eqn:Es; [|rewrite rget_rset_other by exact Es; reflexivity].
  apply skey_eqb_eq in Es. subst st'. rewrite rget_rset_same. cbn [r_content andb].
  assert (Hr : get m (r_content match rget st acc with Some r => r | None => empty_response end) =
               match rget st acc with Some r => get m (r_content r) | None => None end)
    by (destruct (rget st acc); reflexivity).
  destruct (c_schema c') as [s'|]; [|rewrite andb_false_r; exact Hr]. rewrite andb_true_r.
  destruct (N.eqb_spec m (eff md')) as [->|Hne]; [apply get_set_same|]. rewrite get_set_other by exact Hne. exact Hr.
Qed.

Lemma fold_keeps rs : forall acc st m s,
  found acc st m = Some s -> forallb (fun e => negb (collides st m e)) rs = true ->
  found (fold_left step rs acc) st m = Some s.
Proof.
  induction rs as [|e rs IH]; intros acc st m s H Hc; [exact H|].
  cbn [forallb] in Hc. apply andb_true_iff in Hc. destruct Hc as [H1 H2]. apply negb_true_iff in H1.
  cbn [fold_left]. apply IH; [rewrite found_step, H1; exact H|exact H2].
Qed.

(** every content with a schema is emitted under its status and media type, provided no later
    entry of the same transfer has the same status and the same effective media type *)
Theorem responses_lossless : forall before st md c after s,
  c_schema c = Some s ->
  forallb (fun e => negb (collides st (eff md) e)) after = true ->
  found (xfer_responses (before ++ ((st, md), c) :: after)) st (eff md) = Some s.
Proof.
  intros before st md c after s Hs Hc. unfold xfer_responses. rewrite fold_left_app. cbn [fold_left].
  apply fold_keeps; [|exact Hc].
  rewrite found_step. unfold collides. rewrite skey_eqb_refl, N.eqb_refl, Hs. exact Hs.
Qed.

(** K20: two contents with one status whose media types are the default one, implicitly and
    explicitly: the first schema is lost *)
Lemma media_collision_refuted :
  exists rs st md c s, In ((st, md), c) rs /\ c_schema c = Some s /\ found (xfer_responses rs) st (eff md) <> Some s.
Proof.
  exists [((Some 200%N, Some 0%N), mk_content (Some 1%N) [] None); ((Some 200%N, None), mk_content (Some 2%N) [] None)],
         (Some 200%N), (Some 0%N), (mk_content (Some 1%N) [] None), 1%N.
  split; [left; reflexivity|]. split; [reflexivity|]. cbn. discriminate.
Qed.

(** K4 on the pinned tree: of two status-less contents only the last one reached `default` *)
Lemma default_overwritten_pinned :
  let rs := [((None, Some 5%N), mk_content (Some 1%N) [] None); ((None, Some 6%N), mk_content (Some 2%N) [] None)] in
  found (fold_left step_pinned rs []) None 5%N = None /\ found (xfer_responses rs) None 5%N = Some 1%N.
Proof. cbn. split; reflexivity. Qed.

(** F9 on the pinned tree: the headers of an earlier content with the same status were dropped *)
Lemma headers_overwritten_pinned :
  let rs := [((Some 200%N, Some 5%N), mk_content (Some 1%N) [(7%N, 70%N)] (Some 9%N)); ((Some 200%N, Some 6%N), mk_content (Some 2%N) [] None)] in
  (match rget (Some 200%N) (fold_left step_pinned rs []) with Some r => get 7%N (r_headers r) | None => None end) = None /\
  (match rget (Some 200%N) (xfer_responses rs) with Some r => (get 7%N (r_headers r), r_desc r) | None => (None, None) end) = (Some 70%N, Some 9%N).
Proof. cbn. split; reflexivity. Qed.
