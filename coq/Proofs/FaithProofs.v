(** Structural faithfulness of the back end (C02), on the evaluator and builder models:
    nothing declared is dropped or duplicated at the level of methods and paths.
    - a relation has, for every method, the *last* of its transfers that declares the method
      (and none if no transfer declares it);
    - the path item lists exactly the operations of the methods that have a transfer, in
      method order;
    - the paths of the document are the patterns of the relations, each once, in order of first
      appearance. *)
From Oal Require Import Eval Builder AssocFacts.
From Coq Require Import Lia.
Local Open Scope nat_scope.

Definition has_method (t : transfer) (m : nat) : bool := match t with Xfer ms _ _ _ _ _ _ _ => nth m ms false end.
(** [Eval.method_bits] makes one bit for each of the 7 methods *)
Definition wf_xfer (t : transfer) : Prop := match t with Xfer ms _ _ _ _ _ _ _ => length ms = 7 end.

(** the fold of [add_xfer] over the method bits, from bit [i] on *)
Lemma add_bits_spec (t : transfer) (bs : list bool) : forall (xs : list (option transfer)) i, i + length bs <= length xs ->
  let r := fst (fold_left (fun '(xs, i) (b : bool) => (if b then set_nth i (Some t) xs else xs, S i)) bs (xs, i)) in
  length r = length xs /\ forall m, nth m r None = if andb (Nat.leb i m) (nth (m - i) bs false) then Some t else nth m xs None.
Proof.
  induction bs as [|b bs IH]; intros xs i Hi; cbn [fold_left fst].
  - split; [reflexivity|]. intros m. destruct (m - i); rewrite andb_false_r; reflexivity.
  - cbn [length] in Hi. set (xs' := if b then set_nth i (Some t) xs else xs).
    assert (Hl : length xs' = length xs) by (destruct b; [apply set_nth_length|reflexivity]).
    assert (Hn : forall m, nth m xs' None = if b && Nat.eqb m i then Some t else nth m xs None).
    { intros m. destruct b; [apply set_nth_nth; lia|reflexivity]. }
    destruct (IH xs' (S i)) as [Hl' Hs]; [lia|]. split; [congruence|]. intros m. rewrite Hs, Hn.
    destruct (Nat.eqb_spec m i) as [->|Hne].
    + rewrite (proj2 (Nat.leb_gt (S i) i)), Nat.leb_refl, Nat.sub_diag by lia.
      cbn [andb nth]. rewrite andb_true_r. reflexivity.
    + rewrite andb_false_r. destruct (Nat.leb_spec i m) as [Hle|Hlt].
      * assert (Hlt : S i <= m) by (clear - Hle Hne; lia). rewrite (proj2 (Nat.leb_le _ _) Hlt).
        replace (m - i) with (S (m - S i)) by (clear - Hlt; lia). reflexivity.
      * rewrite (proj2 (Nat.leb_gt (S i) m)) by (clear - Hlt; lia). reflexivity.
Qed.

Lemma add_xfer_spec xs t : wf_xfer t -> 7 <= length xs ->
  length (add_xfer xs t) = length xs /\ forall m, nth m (add_xfer xs t) None = if has_method t m then Some t else nth m xs None.
Proof.
  destruct t as [ms dom rg prm d s tg i]. cbn [wf_xfer has_method add_xfer]. intros Hw Hl. rewrite <- Hw in Hl.
  destruct (add_bits_spec (Xfer ms dom rg prm d s tg i) ms xs 0 Hl) as [Hl' Hs]. split; [exact Hl'|].
  intros m. rewrite Hs. cbn [Nat.leb andb]. rewrite Nat.sub_0_r. reflexivity.
Qed.

(** the last transfer of a list that declares method [m] *)
Fixpoint last_with (m : nat) (ts : list transfer) (acc : option transfer) : option transfer :=
  match ts with [] => acc | t :: ts' => last_with m ts' (if has_method t m then Some t else acc) end.

(* for every index, also beyond the seven slots, where both sides are [None] *)
Lemma relation_slots_all ts : Forall wf_xfer ts -> forall xs, length xs = 7 ->
  length (fold_left add_xfer ts xs) = 7 /\
  forall m, nth m (fold_left add_xfer ts xs) None = last_with m ts (nth m xs None).
Proof.
  induction 1 as [|t ts Ht _ IH]; intros xs Hx; cbn [fold_left last_with]; [auto|].
  destruct (add_xfer_spec xs t Ht) as [Hl Hs]; [rewrite Hx; apply le_n|]. rewrite Hx in Hl.
  destruct (IH _ Hl) as [Hl' Hs'].
  split; [exact Hl'|]. intros m. rewrite (Hs' m), Hs. reflexivity.
Qed.

Theorem relation_slots ts : Forall wf_xfer ts -> forall xs, length xs = 7 ->
  length (fold_left add_xfer ts xs) = 7 /\
  forall m, m < 7 -> nth m (fold_left add_xfer ts xs) None = last_with m ts (nth m xs None).
Proof. intros Hw xs Hx. destruct (relation_slots_all ts Hw xs Hx) as [Hl Hs]. split; [exact Hl|intros m _; apply Hs]. Qed.

Lemma last_with_some m ts : forall acc,
  (acc <> None \/ exists t, In t ts /\ has_method t m = true) <-> last_with m ts acc <> None.
Proof.
  induction ts as [|t ts IH]; intros acc; cbn [last_with].
  - split; [intros [H|(t & [] & _)]; exact H|intros H; left; exact H].
  - rewrite <- IH. destruct (has_method t m) eqn:E.
    + split; intros _; [left; discriminate|right; exists t; split; [left; reflexivity|exact E]].
    + split; (intros [H|(t0 & Hin & Ht0)]; [left; exact H|right; exists t0]).
      * destruct Hin as [<-|Hin]; [congruence|auto].
      * split; [right; exact Hin|exact Ht0].
Qed.

Corollary declared_method_has_transfer ts m : Forall wf_xfer ts -> m < 7 ->
  (exists t, In t ts /\ has_method t m = true) <-> nth m (fold_left add_xfer ts no_xfers) None <> None.
Proof.
  intros Hw _. destruct (relation_slots_all ts Hw no_xfers eq_refl) as [_ Hs]. rewrite (Hs m).
  rewrite (nth_repeat None 7 m : nth m no_xfers None = None), <- last_with_some. split; [intros H; right; exact H|intros [H|H]; [contradiction|exact H]].
Qed.

Section Ops.
  Variable strs : N -> text.
  Variable table : list (rkey * schema).
  Variable names : list text.

  Fixpoint some_labels (xs : list (option transfer)) (m : nat) : list text :=
    match xs with
    | [] => []
    | None :: xs' => some_labels xs' (S m)
    | Some _ :: xs' => method_label m :: some_labels xs' (S m)
    end.

  Theorem ops_are_the_declared_methods u : forall xs m l,
    ops_json strs table names u xs m = Some l -> map fst l = some_labels xs m.
  Proof.
    induction xs as [|[t|] xs IH]; intros m l H; cbn [ops_json some_labels] in *.
    - injection H as <-. reflexivity.
    - apply obind_Some in H as (oj & _ & H). apply obind_Some in H as (r & E & [= <-]).
      cbn [map fst]. f_equal. apply (IH (S m) r E).
    - apply IH, H.
  Qed.

  (** the keys of the paths object: the patterns of the relations, each once, in order of first appearance *)
  Fixpoint dedup (l : list text) (seen : list text) : list text :=
    match l with
    | [] => []
    | k :: l' => if in_dec (list_eq_dec N.eq_dec) k seen then dedup l' seen else k :: dedup l' (k :: seen)
    end.

  (** the seen set is used only through membership *)
  Lemma dedup_ext l : forall s1 s2, (forall x, In x s1 <-> In x s2) -> dedup l s1 = dedup l s2.
  Proof.
    induction l as [|x l IHl]; intros s1 s2 Hs; cbn [dedup]; [reflexivity|].
    destruct (in_dec (list_eq_dec N.eq_dec) x s1) as [H1|H1]; destruct (in_dec (list_eq_dec N.eq_dec) x s2) as [H2|H2].
    - apply IHl, Hs.
    - destruct H2. apply Hs, H1.
    - destruct H1. apply Hs, H2.
    - f_equal. apply IHl. intros y. cbn [In]. rewrite Hs. reflexivity.
  Qed.

  Lemma fold_put_keys (items : list (text * json)) : forall acc,
    map fst (fold_left (fun m kv => put (fst kv) (snd kv) m) items acc) = map fst acc ++ dedup (map fst items) (map fst acc).
  Proof.
    induction items as [|[k v] items IH]; intros acc; cbn [fold_left map fst dedup]; [rewrite app_nil_r; reflexivity|].
    rewrite IH, put_keys. destruct (in_dec (list_eq_dec N.eq_dec) k (map fst acc)) as [Hin|Hnin]; [reflexivity|].
    rewrite <- app_assoc. cbn [app]. f_equal. f_equal.
    apply dedup_ext. intros x. rewrite in_app_iff. cbn [In].
    split; [intros [H|[H|[]]]; auto|intros [H|H]; auto].
  Qed.

  Theorem path_keys_are_the_patterns rels m :
    paths_json strs table names rels = Some (JObj m) ->
    exists items, oall (map (path_item_json strs table names) rels) = Some items /\ map fst m = dedup (map fst items) [].
  Proof.
    unfold paths_json. intros H. apply obind_Some in H as (items & E & [= <-]).
    exists items. split; [exact E|]. apply fold_put_keys.
  Qed.
End Ops.

Lemma method_bits_wf ms dom rg prm d s tg i : wf_xfer (Xfer (method_bits ms) dom rg prm d s tg i).
Proof. reflexivity. Qed.
