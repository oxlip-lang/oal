(** History independence of the language server's main loop (Model/Loop.v): after any history
    of notifications, requests and idle seconds, a request is answered, and the client shows
    diagnostics, exactly as with a server just started on the current texts. *)
From Oal Require Import Diag DiagProofs Loop.

Section History.
Variables world fstate req ans : Type.
Variable docs_of : world -> list loc.
Variable eval_folders : world -> fstate * list (loc * diag).
Variable handle : fstate -> world -> req -> ans.

Notation lstate := (lstate world fstate).
Notation event := (event world req).
Notation step := (@Loop.step world fstate req ans docs_of eval_folders handle).
Notation run := (@Loop.run world fstate req ans docs_of eval_folders handle).
Notation do_refresh := (@Loop.do_refresh world fstate docs_of eval_folders).
Notation start := (@Loop.start world fstate).
Notation world_after := (@Loop.world_after world req).

(** what holds between two events: the bookkeeping invariant of Diag.v, and, when the state is
    not stale, folder states and published diagnostics are those of the current texts *)
Definition synced (s : lstate) : Prop :=
  inv (l_sc s) /\
  (l_stale s = false ->
   l_fs s = fst (eval_folders (l_world s)) /\
   forall l, vget (s_view (l_sc s)) l = errs_of l (snd (eval_folders (l_world s)))).

Lemma refresh_synced s : synced s -> synced (do_refresh s) /\ l_stale (do_refresh s) = false /\ l_world (do_refresh s) = l_world s.
Proof.
  intros Hs. unfold Loop.do_refresh. destruct (l_stale s) eqn:E.
  - cbn [l_sc l_stale l_fs l_world].
    destruct (refresh_exact (l_sc s) (docs_of (l_world s)) (snd (eval_folders (l_world s))) (proj1 Hs)) as [Hget Hinv'].
    split; [|split; reflexivity]. split; cbn [l_sc l_stale l_fs l_world]; [exact Hinv'|].
    intros _. split; [reflexivity|exact Hget].
  - split; [exact Hs|split; [exact E|reflexivity]].
Qed.

Lemma step_synced s e : synced s ->
  synced (fst (step s e)) /\ forall h, world_after (l_world (fst (step s e))) h = world_after (l_world s) (e :: h).
Proof.
  intros Hs. destruct (refresh_synced s Hs) as (A & _ & C).
  destruct e as [f|r|]; cbn [Loop.step fst Loop.world_after].
  - split; [|reflexivity]. split; [exact (proj1 Hs)|]. cbn [l_stale]. discriminate.
  - rewrite C. split; [exact A|reflexivity].
  - rewrite C. split; [exact A|reflexivity].
Qed.

Lemma run_synced h : forall s, synced s -> synced (fst (run s h)) /\ l_world (fst (run s h)) = world_after (l_world s) h.
Proof.
  induction h as [|e h IH]; intros s Hs; cbn [Loop.run]; [split; [exact Hs|reflexivity]|].
  destruct (step_synced s e Hs) as [H1 W1]. destruct (step s e) as [s1 a]. cbn [fst] in H1, W1.
  destruct (IH s1 H1) as [H2 W2]. destruct (run s1 h) as [s2 l]. cbn [fst] in *.
  rewrite <- W1. split; assumption.
Qed.

Lemma start_synced w fs0 : synced (start w fs0).
Proof. split; [apply inv_fresh|]. cbn. discriminate. Qed.

Lemma run_app h1 h2 s : run s (h1 ++ h2) = let '(s1, l1) := run s h1 in let '(s2, l2) := run s1 h2 in (s2, l1 ++ l2).
Proof.
  revert s. induction h1 as [|e h1 IH]; intros s; cbn [app Loop.run].
  - destruct (run s h2) as [s2 l2]. reflexivity.
  - destruct (step s e) as [s1 a]. rewrite IH. destruct (run s1 h1) as [s1' l1]. destruct (run s1' h2) as [s2 l2].
    destruct a; reflexivity.
Qed.

Lemma refresh_after_history w fs0 h :
  let s := do_refresh (fst (run (start w fs0) h)) in
  let w' := world_after w h in
  l_world s = w' /\ l_fs s = fst (eval_folders w') /\
  forall l, vget (s_view (l_sc s)) l = errs_of l (snd (eval_folders w')).
Proof.
  cbn zeta. destruct (run_synced h (start w fs0) (start_synced w fs0)) as [H W].
  destruct (refresh_synced _ H) as (A & B & C). destruct (proj2 A B) as [F V].
  rewrite C, W in F, V |- *. auto.
Qed.

(** the default given to [last] is arbitrary: a history that ends with a request has an answer *)
Theorem request_after_history w fs0 h r :
  let w' := world_after w h in
  let '(s, answers) := run (start w fs0) (h ++ [Request r]) in
  last answers (handle fs0 w r) = handle (fst (eval_folders w')) w' r /\
  (forall l, vget (s_view (l_sc s)) l = errs_of l (snd (eval_folders w'))) /\
  l_world s = w'.
Proof.
  cbn zeta. rewrite run_app. destruct (refresh_after_history w fs0 h) as (W & F & V).
  destruct (run (start w fs0) h) as [s1 l1]. cbn [fst] in W, F, V. cbn [Loop.run Loop.step].
  rewrite last_last, F, W. auto.
Qed.

(** history independence: the same as a server just started on the current texts *)
Theorem loop_history_independent w fs0 fs1 h r :
  let w' := world_after w h in
  let '(s, answers) := run (start w fs0) (h ++ [Request r]) in
  let '(s', answers') := run (start w' fs1) [Request r] in
  last answers (handle fs0 w r) = last answers' (handle fs1 w' r) /\
  forall l, vget (s_view (l_sc s)) l = vget (s_view (l_sc s')) l.
Proof.
  cbn zeta. pose proof (request_after_history w fs0 h r) as A. pose proof (request_after_history (world_after w h) fs1 [] r) as B.
  cbn zeta in A, B. cbn [app Loop.world_after] in B.
  destruct (run (start w fs0) (h ++ [Request r])) as [s l]. destruct (run (start (world_after w h) fs1) [Request r]) as [s' l'].
  destruct A as (A1 & A2 & _). destruct B as (B1 & B2 & _). split; [congruence|]. intros x. rewrite A2, B2. reflexivity.
Qed.

Theorem loop_diagnostic_iff_error w fs0 h r :
  (exists l, vget (s_view (l_sc (fst (run (start w fs0) (h ++ [Request r]))))) l <> []) <->
  snd (eval_folders (world_after w h)) <> [].
Proof.
  pose proof (request_after_history w fs0 h r) as A. cbn zeta in A.
  destruct (run (start w fs0) (h ++ [Request r])) as [s l]. cbn [fst]. apply shown_iff_error, A.
Qed.

Theorem idle_after_history w fs0 h :
  let w' := world_after w h in
  forall l, vget (s_view (l_sc (fst (run (start w fs0) (h ++ [Idle]))))) l = errs_of l (snd (eval_folders w')).
Proof.
  cbn zeta. rewrite run_app. destruct (refresh_after_history w fs0 h) as (_ & _ & V).
  destruct (run (start w fs0) h) as [s1 l1]. exact V.
Qed.
End History.

(** a notification that does not mark the state stale breaks it: texts are numbers, the error
    list names the text; after a request, a lazy notification and another request the client
    still sees the diagnostics of the old text *)
Example lazy_notification_is_stale :
  let docs_of (w : N) := [1%N] in
  let eval_folders (w : N) := (w, [(1%N, w)]) in
  let handle (fs w r : N) := fs in
  let s0 : Loop.lstate N N := Loop.start 5%N 0%N in
  let s1 := fst (Loop.step docs_of eval_folders handle s0 (Request 0%N)) in
  let s2 := fst (Loop.step_lazy docs_of eval_folders handle s1 (Notify (fun _ => 6%N))) in
  let '(s3, a) := Loop.step docs_of eval_folders handle s2 (Request 0%N) in
  a = Some 5%N /\ vget (s_view (l_sc s3)) 1%N = [5%N] /\ l_world s3 = 6%N.
Proof. vm_compute. repeat split. Qed.
