(** Proofs about Model/Resolve.v (property C08): the cursor walk with a mutable scope stack
    computes exactly the lexical binding relation. *)
From Oal Require Import Resolve.

Section TreeInd.
  Variable P : rtree -> Prop.
  Hypothesis Hv : forall u q x, P (RVar u q x).
  Hypothesis Hr : forall bind b body, P body -> P (RRec bind b body).
  Hypothesis Hn : forall cs, Forall P cs -> P (RNode cs).
  Fixpoint rtree_ind' (t : rtree) : P t :=
    match t with
    | RVar u q x => Hv u q x
    | RRec bind b body => Hr bind b body (rtree_ind' body)
    | RNode cs => Hn cs ((fix go (l : list rtree) : Forall P l :=
                            match l with [] => Forall_nil P | x :: l' => Forall_cons x (rtree_ind' x) (go l') end) cs)
    end.
End TreeInd.

(** the walk of a subtree leaves the stack as it found it, appends exactly the lexical
    resolution of the subtree, and fails exactly when the lexical definition fails *)
Theorem run_is_lex : forall t rest en acc,
  run (linearize t ++ rest) en acc =
  match lex en t with
  | inl ds => run rest en (acc ++ ds)
  | inr e => inr e
  end.
Proof.
  induction t as [u q x|bind b body IH|cs IH] using rtree_ind'; intros rest en acc.
  - cbn [linearize app run lex]. destruct (lookup (x, q) en); reflexivity.
  - cbn [linearize lex]. cbn [app run]. rewrite <- app_assoc. rewrite IH.
    cbn [sc_insert]. destruct (lex _ body); [|reflexivity]. cbn [app run tl]. reflexivity.
  - cbn [linearize lex]. revert rest en acc.
    induction IH as [|c cs Hc _ IHcs]; intros rest en acc.
    + cbn [flat_map app seq_results]. rewrite app_nil_r. reflexivity.
    + cbn [flat_map seq_results]. rewrite <- app_assoc. rewrite Hc.
      destruct (lex en c) as [ds|e]; [|reflexivity].
      rewrite IHcs.
      destruct (seq_results (lex en) cs) as [ds'|e]; [|reflexivity].
      rewrite app_assoc. reflexivity.
Qed.

Corollary run_tree t en acc :
  run (linearize t) en acc = match lex en t with inl ds => inl (en, acc ++ ds) | inr e => inr e end.
Proof. rewrite <- (app_nil_r (linearize t)), run_is_lex. reflexivity. Qed.

Corollary resolve_decl_is_lexical g d : resolve_decl_run g d = resolve_decl_lex g d.
Proof. unfold resolve_decl_run, resolve_decl_lex. rewrite run_tree. destruct (lex _ (d_rhs d)); reflexivity. Qed.

Lemma entry_eqb_spec a b : reflect (a = b) (entry_eqb a b).
Proof.
  destruct a as [x q], b as [y r]. unfold entry_eqb. cbn [fst snd].
  destruct (N.eqb_spec x y) as [->|Hxy]; [|right; congruence]. cbn [andb].
  destruct q as [q|], r as [r|]; try (right; congruence); [|left; reflexivity].
  destruct (N.eqb_spec q r) as [->|Hqr]; [left; reflexivity|right; congruence].
Qed.

Lemma entry_eqb_refl e : entry_eqb e e = true.
Proof. destruct (entry_eqb_spec e e); congruence. Qed.

Lemma sc_get_insert e e' d s : sc_get e (sc_insert e' d s) = if entry_eqb e e' then Some d else sc_get e s.
Proof.
  induction s as [|[e2 d2] s IH]; cbn [sc_insert sc_get]; [reflexivity|].
  destruct (entry_eqb_spec e' e2) as [<-|H2]; cbn [sc_get]; [destruct (entry_eqb e e'); reflexivity|].
  rewrite IH. destruct (entry_eqb_spec e e2) as [<-|_]; [|reflexivity].
  destruct (entry_eqb_spec e e') as [E|_]; [congruence|reflexivity].
Qed.

Theorem rec_binder_innermost en bind b u :
  lex en (RRec bind b (RVar u None b)) = inl [(u, DExt bind)].
Proof. cbn [lex lookup sc_get]. rewrite entry_eqb_refl. reflexivity. Qed.

Theorem param_shadows_global g bind x ps u :
  sc_get (x, None) (param_scope ps) = Some (DExt bind) ->
  lex [param_scope ps; g] (RVar u None x) = inl [(u, DExt bind)].
Proof. intros H. cbn [lex lookup]. rewrite H. reflexivity. Qed.

Lemma last_param_wins ps n x : sc_get (x, None) (param_scope (ps ++ [(n, x)])) = Some (DExt n).
Proof.
  unfold param_scope. rewrite fold_left_app. cbn [fold_left fst snd]. rewrite sc_get_insert, entry_eqb_refl. reflexivity.
Qed.

Theorem last_duplicate_param_wins n1 n2 x :
  sc_get (x, None) (param_scope [(n1, x); (n2, x)]) = Some (DExt n2).
Proof. exact (last_param_wins [(n1, x)] n2 x). Qed.

Theorem global_when_not_local g ps u q x :
  sc_get (x, q) (param_scope ps) = None ->
  lex [param_scope ps; g] (RVar u q x) =
  match sc_get (x, q) g with Some d => inl [(u, d)] | None => inr (NotInScope u) end.
Proof. intros H. cbn [lex lookup]. rewrite H. destruct (sc_get (x, q) g); reflexivity. Qed.

Theorem unbound_is_error en u q x : lookup (x, q) en = None <-> lex en (RVar u q x) = inr (NotInScope u).
Proof. cbn [lex]. destruct (lookup (x, q) en); split; congruence. Qed.

Theorem duplicate_decl_is_error s d1 d2 ds :
  d_name d1 = d_name d2 -> sc_get (d_name d1, None) s = None ->
  declare_all s (d1 :: d2 :: ds) = inr (DuplicateDecl (d_node d2)).
Proof.
  intros E H. cbn [declare_all]. rewrite H, <- E, sc_get_insert, entry_eqb_refl. reflexivity.
Qed.

(** K8: a declaration does not shadow an unqualified import (or the built-in) of the same
    name: it is rejected *)
Lemma decl_import_clash_refuted :
  exists imports d, global_scope imports [d] = inr (DuplicateDecl (d_node d)).
Proof.
  exists [(None, [(5%N, 77%N)])], (mk_rdecl 9 5 [] (RNode [])). reflexivity.
Qed.

(** K9: two unqualified imports exporting one name: the later one wins, so the binder of a
    use depends on the order of the use statements *)
Lemma import_order_refuted :
  exists i1 i2 x, (exists s, global_scope [i1; i2] [] = inl s /\ exists s', global_scope [i2; i1] [] = inl s' /\
                   sc_get (x, None) s <> sc_get (x, None) s').
Proof.
  exists (None, [(5%N, 70%N)]), (None, [(5%N, 71%N)]), 5%N.
  eexists. split; [reflexivity|]. eexists. split; [reflexivity|]. cbn. discriminate.
Qed.

(** qualified imports are looked up by qualifier: a qualified and an unqualified entry of
    one name do not interfere *)
Theorem qualifier_separates s x q d :
  sc_get (x, None) (sc_insert (x, Some q) d s) = sc_get (x, None) s.
Proof. rewrite sc_get_insert. unfold entry_eqb. cbn [fst snd]. rewrite andb_false_r. reflexivity. Qed.
