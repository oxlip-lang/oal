(** Proofs about Model/Unify.v (property C07): the substitution built by [unify]
    stays triangular (hence acyclic), [reduce] computes [apply] on triangular
    substitutions within an explicit fuel bound, and accepted equation systems are
    solved by the resulting substitution. *)
From Coq Require Import Lia Arith PeanoNat.
From Oal Require Import ListFacts Tag Unify.

Section TagInd.
  Variable P : tag -> Prop.
  Hypothesis Hb : forall b, P (TBase b).
  Hypothesis Hp : forall t, P t -> P (TProperty t).
  Hypothesis Hf : forall bs r, Forall P bs -> P r -> P (TFunc bs r).
  Hypothesis Hv : forall v, P (TVar v).
  Fixpoint tag_ind' (t : tag) : P t :=
    match t with
    | TBase b => Hb b
    | TProperty t' => Hp t' (tag_ind' t')
    | TFunc bs r =>
        Hf bs r
          ((fix go (l : list tag) : Forall P l :=
              match l with
              | [] => Forall_nil P
              | x :: l' => Forall_cons x (tag_ind' x) (go l')
              end) bs)
          (tag_ind' r)
    | TVar v => Hv v
    end.
End TagInd.

Lemma base_eqb_iff a b : base_eqb a b = true <-> a = b.
Proof. split; [destruct a, b; intros H; first [reflexivity|discriminate H]|intros ->; destruct b; reflexivity]. Qed.

Lemma tag_eqb_iff : forall a b, tag_eqb a b = true <-> a = b.
Proof.
  induction a as [x|x IH|xs x IHxs IHx|v] using tag_ind'; intros [y|y|ys y|w]; try (split; discriminate).
  - cbn. rewrite base_eqb_iff. split; congruence.
  - cbn [tag_eqb]. rewrite IH. split; congruence.
  - cbn [tag_eqb]. rewrite andb_true_iff, IHx. clear IHx.
    transitivity (xs = ys /\ x = y); [|split; [intros [-> ->]; reflexivity|intros [= -> ->]; split; reflexivity]].
    apply and_iff_compat_r. revert ys. induction IHxs as [|p xs Hp _ IH]; intros [|q ys];
      try (split; discriminate); [split; reflexivity|].
    rewrite andb_true_iff, Hp, IH. split; [intros [-> ->]; reflexivity|intros [= -> ->]; split; reflexivity].
  - cbn. rewrite N.eqb_eq. split; congruence.
Qed.

Lemma tag_eqb_spec a b : reflect (a = b) (tag_eqb a b).
Proof. apply iff_reflect. symmetry. apply tag_eqb_iff. Qed.

Fixpoint apply_one (v : N) (s : tag) (t : tag) : tag :=
  match t with
  | TVar w => if N.eqb w v then s else t
  | TFunc bs r => TFunc (map (apply_one v s) bs) (apply_one v s r)
  | TProperty t' => TProperty (apply_one v s t')
  | TBase _ => t
  end.

(** a substitution lists its newest binding first and is applied oldest first *)
Fixpoint apply (s : subst) (t : tag) : tag :=
  match s with
  | [] => t
  | (v, u) :: older => apply_one v u (apply older t)
  end.

Definition reduced (s : subst) (t : tag) : Prop :=
  forall w, occurs w t = true -> lookup s w = None.

(** triangular: each bound term was fully reduced with respect to the older
    bindings and does not contain its own variable, which was unbound *)
Fixpoint TRI (s : subst) : Prop :=
  match s with
  | [] => True
  | (v, u) :: older => TRI older /\ lookup older v = None /\ occurs v u = false /\ reduced older u
  end.

Lemma apply_one_id v s : forall t, occurs v t = false -> apply_one v s t = t.
Proof.
  induction t as [x|x IH|xs x IHxs IHx|w] using tag_ind'; cbn [occurs apply_one]; intros H.
  - reflexivity.
  - f_equal. apply IH, H.
  - apply orb_false_iff in H as [H1 H2]. f_equal; [|apply IHx, H1].
    induction IHxs as [|b xs Hb _ IH]; [reflexivity|]. cbn [existsb] in H2. apply orb_false_iff in H2 as [Hb' H2].
    cbn [map]. rewrite (Hb Hb'), (IH H2). reflexivity.
  - rewrite N.eqb_sym. rewrite H. reflexivity.
Qed.

Lemma occurs_var v : occurs v (TVar v) = true.
Proof. cbn. apply N.eqb_refl. Qed.

Lemma apply_reduced s : forall t, reduced s t -> apply s t = t.
Proof.
  induction s as [|[v u] older IH]; intros t H; [reflexivity|].
  cbn [apply]. rewrite IH.
  - apply apply_one_id. destruct (occurs v t) eqn:E; [|reflexivity].
    specialize (H v E). cbn [lookup] in H. rewrite N.eqb_refl in H. discriminate.
  - intros w Hw. specialize (H w Hw). cbn [lookup] in H. destruct (N.eqb w v); [discriminate|exact H].
Qed.

Lemma apply_base s b : apply s (TBase b) = TBase b.
Proof. induction s as [|[v u] older IH]; cbn [apply]; [reflexivity|]. rewrite IH. reflexivity. Qed.

Lemma apply_property s t : apply s (TProperty t) = TProperty (apply s t).
Proof. induction s as [|[v u] older IH]; cbn [apply]; [reflexivity|]. rewrite IH. reflexivity. Qed.

Lemma apply_func s bs r : apply s (TFunc bs r) = TFunc (map (apply s) bs) (apply s r).
Proof.
  induction s as [|[v u] older IH]; cbn [apply].
  - rewrite map_id. reflexivity.
  - rewrite IH. cbn [apply_one]. rewrite map_map. reflexivity.
Qed.

Lemma apply_var_unbound s v : lookup s v = None -> apply s (TVar v) = TVar v.
Proof.
  induction s as [|[w u] older IH]; cbn [apply lookup]; intros H; [reflexivity|].
  destruct (N.eqb v w) eqn:E; [discriminate|]. rewrite IH by exact H. cbn [apply_one]. rewrite E. reflexivity.
Qed.

Lemma apply_var_bound s : forall v t, TRI s -> lookup s v = Some t -> apply s (TVar v) = apply s t.
Proof.
  induction s as [|[w u] older IH]; intros v t Htri H; [discriminate|].
  destruct Htri as (Htri & Hw & Hocc & Hred).
  cbn [lookup] in H. cbn [apply]. destruct (N.eqb_spec v w) as [->|_].
  - injection H as <-. rewrite (apply_var_unbound older w Hw). cbn [apply_one]. rewrite N.eqb_refl.
    rewrite (apply_reduced older u Hred), (apply_one_id w u u Hocc). reflexivity.
  - rewrite (IH v t Htri H). reflexivity.
Qed.

Lemma apply_app new s t : apply (new ++ s) t = apply new (apply s t).
Proof. induction new as [|[v u] new IH]; cbn [app apply]; [reflexivity|]. rewrite IH. reflexivity. Qed.

Lemma occurs_func w bs r : occurs w (TFunc bs r) = occurs w r || existsb (occurs w) bs.
Proof. reflexivity. Qed.

Lemma occurs_func_iff w bs r : occurs w (TFunc bs r) = true <-> exists b, In b (r :: bs) /\ occurs w b = true.
Proof. apply (existsb_exists (occurs w) (r :: bs)). Qed.

(** what holds of every variable of a function tag holds of every variable of its range and of
    its domains; [reduced] and the like are of this form *)
Lemma occurs_func_sub (P : N -> Prop) bs r :
  (forall w, occurs w (TFunc bs r) = true -> P w) -> forall b, In b (r :: bs) -> forall w, occurs w b = true -> P w.
Proof.
  intros H b Hb w Hw. apply H, occurs_func_iff. exists b. split; assumption.
Qed.

Lemma occurs_apply_one v u : forall t, occurs v u = false -> occurs v (apply_one v u t) = false.
Proof.
  intros t Hu. induction t as [b|t' IH|bs t' IHbs IHr|w] using tag_ind'; cbn [apply_one occurs].
  - reflexivity.
  - exact IH.
  - rewrite IHr. cbn [orb]. induction IHbs as [|x l Hx _ IHl]; [reflexivity|].
    cbn [map existsb]. rewrite Hx, IHl. reflexivity.
  - destruct (N.eqb w v) eqn:E; [exact Hu|]. cbn [occurs]. rewrite N.eqb_sym. exact E.
Qed.

Lemma occurs_apply_one_or v u : forall t w, occurs w (apply_one v u t) = true -> occurs w t = true \/ occurs w u = true.
Proof.
  induction t as [x|x IH|xs x IHxs IHx|y] using tag_ind'; intros w H; cbn [apply_one] in H.
  - left. exact H.
  - cbn [occurs] in *. apply IH, H.
  - apply occurs_func_iff in H as (b' & Hin & Hb). apply (in_map_iff (apply_one v u) (x :: xs)) in Hin as (b & <- & Hin).
    pose proof (Forall_cons x IHx IHxs) as IHs. rewrite Forall_forall in IHs.
    destruct (IHs b Hin w Hb) as [H'|H']; [|right; exact H'].
    left. apply occurs_func_iff. exists b. split; assumption.
  - destruct (N.eqb y v); [right; exact H|left; exact H].
Qed.

Fixpoint depth (t : tag) : nat :=
  match t with
  | TFunc bs r => S (Nat.max (depth r) (fold_right (fun b acc => Nat.max (depth b) acc) 0 bs))
  | TProperty t' => S (depth t')
  | _ => 0
  end.

Fixpoint cost (s : subst) : nat :=
  match s with [] => 0 | (_, u) :: s' => S (depth u) + cost s' end.

Lemma lookup_app_none a b v : lookup (a ++ b) v = None -> lookup a v = None /\ lookup b v = None.
Proof.
  induction a as [|[w u] a IH]; cbn [app lookup]; [auto|].
  destruct (N.eqb v w); [discriminate|apply IH].
Qed.

Lemma lookup_app_r a b v : lookup a v = None -> lookup (a ++ b) v = lookup b v.
Proof.
  induction a as [|[w u] a IH]; cbn [app lookup]; [reflexivity|].
  destruct (N.eqb v w); [discriminate|apply IH].
Qed.

Lemma map_opt_Forall2 {A B} (f : A -> option B) : forall l l',
  map_opt f l = Some l' -> Forall2 (fun x y => f x = Some y) l l'.
Proof.
  induction l as [|x l IH]; cbn [map_opt]; intros l' H.
  - inversion H. constructor.
  - destruct (f x) eqn:E; [|discriminate]. destruct (map_opt f l) eqn:E2; [|discriminate].
    inversion H; subst. constructor; [exact E | apply IH; reflexivity].
Qed.

Lemma map_opt_mono {A B C} (f : A -> option B) (f' : A -> option C) (g : B -> C) l ys :
  (forall x y, f x = Some y -> f' x = Some (g y)) -> map_opt f l = Some ys -> map_opt f' l = Some (map g ys).
Proof.
  intros Hf H. apply map_opt_Forall2 in H. induction H as [|x y l ys Hxy _ IH]; cbn [map_opt map]; [reflexivity|].
  rewrite (Hf x y Hxy), IH. reflexivity.
Qed.

Lemma map_opt_map {A B} (f : A -> option B) (g : A -> B) l :
  Forall (fun x => f x = Some (g x)) l -> map_opt f l = Some (map g l).
Proof. induction 1 as [|x l Hx _ IH]; cbn [map_opt map]; [reflexivity|]. rewrite Hx, IH. reflexivity. Qed.

Lemma reduce_weaken : forall n m s t r, reduce n s t = Some r -> n <= m -> reduce m s t = Some r.
Proof.
  induction n as [|n IH]; intros m s t r H Hle; [discriminate|]. destruct m as [|m]; [lia|].
  apply le_S_n in Hle. cbn [reduce] in *. destruct t as [b|t'|bs r0|v].
  - exact H.
  - destruct (reduce n s t') as [r1|] eqn:E; [|discriminate]. rewrite (IH m _ _ _ E Hle). exact H.
  - destruct (map_opt (reduce n s) bs) as [bs'|] eqn:Eb; [|discriminate].
    rewrite (map_opt_mono (reduce n s) (reduce m s)) with (g := fun y => y) (ys := bs'), map_id;
      [|intros x y Hx; exact (IH m s x y Hx Hle)|exact Eb].
    destruct (reduce n s r0) as [r1|] eqn:E; [|discriminate]. rewrite (IH m _ _ _ E Hle). exact H.
  - destruct (lookup s v) as [t'|]; [exact (IH m _ _ _ H Hle)|exact H].
Qed.

Lemma reduce_reduced s : forall t, reduced s t -> forall m, depth t < m -> reduce m s t = Some t.
Proof.
  induction t as [b|t' IH|bs t' IHbs IHr|v] using tag_ind'; intros Hred m Hm;
    (destruct m as [|m]; [lia|]); cbn [reduce]; cbn [depth] in Hm.
  - reflexivity.
  - rewrite (IH Hred m) by lia. reflexivity.
  - pose proof (occurs_func_sub _ _ _ Hred) as Hsub.
    rewrite (IHr (Hsub t' (or_introl eq_refl)) m) by lia. rewrite (map_opt_map _ (fun b => b)), map_id; [reflexivity|].
    rewrite Forall_forall in *. intros b Hb. apply (IHbs b Hb (Hsub b (or_intror Hb))). pose proof (max_in depth bs b Hb). lia.
  - rewrite (Hred v (occurs_var v)). reflexivity.
Qed.

(** the newest binding [v |-> u] is applied last, as in [apply], and costs the fuel of one more
    pass, over [u], which the older bindings leave alone: this is where [cost] comes from *)
Lemma reduce_cons v u older : TRI ((v, u) :: older) -> forall n t r,
  reduce n older t = Some r -> reduce (n + S (depth u)) ((v, u) :: older) t = Some (apply_one v u r).
Proof.
  intros (_ & Hv & Hocc & Hred). induction n as [|n IH]; intros t r H; [discriminate|].
  cbn [Nat.add reduce] in *. destruct t as [b|t'|bs t'|w].
  - injection H as <-. reflexivity.
  - destruct (reduce n older t') as [r'|] eqn:E; [|discriminate]. injection H as <-. rewrite (IH _ _ E). reflexivity.
  - destruct (map_opt (reduce n older) bs) as [bs'|] eqn:Eb; [|discriminate].
    destruct (reduce n older t') as [r'|] eqn:E; [|discriminate]. injection H as <-.
    rewrite (map_opt_mono (reduce n older)) with (g := apply_one v u) (ys := bs'), (IH _ _ E); [reflexivity|exact IH|exact Eb].
  - cbn [lookup]. destruct (N.eqb w v) eqn:Ew.
    + apply N.eqb_eq in Ew. subst w. rewrite Hv in H. injection H as <-. cbn [apply_one]. rewrite N.eqb_refl.
      apply reduce_reduced; [|lia]. intros w Hw. cbn [lookup].
      destruct (N.eqb_spec w v) as [->|_]; [congruence|apply Hred, Hw].
    + destruct (lookup older w) as [t'|]; [apply IH, H|]. injection H as <-. cbn [apply_one]. rewrite Ew. reflexivity.
Qed.

Theorem reduce_exact s : TRI s -> forall t m, 1 + depth t + cost s <= m -> reduce m s t = Some (apply s t).
Proof.
  induction s as [|[v u] older IH]; intros Htri t m Hm; cbn [cost] in Hm.
  - cbn [apply]. apply reduce_reduced; [intros w _; reflexivity|lia].
  - apply (reduce_weaken (1 + depth t + cost older + S (depth u))); [|lia].
    apply (reduce_cons v u older Htri), IH; [apply Htri|apply le_n].
Qed.

Theorem reduce_total s t : TRI s -> forall m, 1 + depth t + cost s <= m -> reduce m s t <> None.
Proof. intros Htri m Hm. rewrite (reduce_exact s Htri t m Hm). discriminate. Qed.

Lemma reduced_apply s : TRI s -> forall t, reduced s (apply s t).
Proof.
  induction s as [|[v u] older IH]; intros Htri t w Hw; [reflexivity|].
  destruct Htri as (Htri & _ & Hocc & Hred). cbn [apply lookup] in *.
  destruct (N.eqb_spec w v) as [->|_]; [rewrite (occurs_apply_one v u _ Hocc) in Hw; discriminate|].
  apply occurs_apply_one_or in Hw as [Hw|Hw]; [exact (IH Htri t w Hw)|exact (Hred w Hw)].
Qed.

Lemma reduce_apply s : TRI s -> forall n t r,
  reduce n s t = Some r -> r = apply s t /\ reduced s r.
Proof.
  intros Htri n t r H. set (m := Nat.max n (1 + depth t + cost s)).
  apply (reduce_weaken n m) in H; [|apply Nat.le_max_l].
  rewrite (reduce_exact s Htri t m (Nat.le_max_r _ _)) in H. injection H as <-.
  split; [reflexivity|apply reduced_apply, Htri].
Qed.

Definition extends (s s' : subst) : Prop := exists new, s' = new ++ s.

Lemma extends_refl s : extends s s.
Proof. exists []. reflexivity. Qed.

Lemma extends_trans a b c : extends a b -> extends b c -> extends a c.
Proof. intros [n1 E1] [n2 E2]. exists (n2 ++ n1). subst. rewrite app_assoc. reflexivity. Qed.

Lemma extends_eq a b l r : extends a b -> apply a l = apply a r -> apply b l = apply b r.
Proof. intros [n E] H. subst. rewrite !apply_app, H. reflexivity. Qed.

Definition unify_spec (s : subst) (l r : tag) (s' : subst) : Prop :=
  TRI s' /\ extends s s' /\ apply s' l = apply s' r.

Lemma unify_spec_sym s l r s' : unify_spec s l r s' -> unify_spec s r l s'.
Proof. intros (A & B & C). split; [exact A|]. split; [exact B|]. symmetry. exact C. Qed.

(** a reduced tag is a fixed point of [apply s], so it can stand for the tag it came from *)
Lemma unify_spec_reduced s l r l' r' s' :
  l' = apply s l -> reduced s l' -> r' = apply s r -> reduced s r' ->
  unify_spec s l' r' s' -> unify_spec s l r s'.
Proof.
  intros -> Hl -> Hr (A & [new ->] & C). split; [exact A|]. split; [exists new; reflexivity|].
  rewrite !apply_app, (apply_reduced s _ Hl), (apply_reduced s _ Hr) in C. rewrite !apply_app. exact C.
Qed.

Lemma unify_all_cons n s l r eqs i :
  unify_all n s ((l, r) :: eqs) i =
  match unify n s l r with UOk s' => unify_all n s' eqs (i + 1) | e => (e, i) end.
Proof. reflexivity. Qed.

Definition bind (s : subst) (v : N) (t : tag) : ures :=
  if occurs v t then UErr ERecursive else UOk ((v, t) :: s).

(** two function tags of the same arity are unified as a system of equations, between the ranges
    first and then between the domains in order: the loop over the domains written inside
    [unify_gen] is [unify_all] on the two lists paired up, and the call on the ranges before it is
    one more equation at the head *)
Definition unify_func (n : nat) (s : subst) (lbs : list tag) (lr : tag) (rbs : list tag) (rr : tag) : ures :=
  fst (unify_all n s ((lr, rr) :: combine lbs rbs) 0).

(** what [unify] answers on the reduced tags, in terms of the calls at the fuel below *)
Definition unify_step (n : nat) (s : subst) (l' r' : tag) : ures :=
  if tag_eqb l' r' then UOk s
  else match l', r' with
       | TVar v, _ => bind s v r'
       | _, TVar v => bind s v l'
       | TFunc lbs lr, TFunc rbs rr =>
           if negb (Nat.eqb (length lbs) (length rbs)) then UErr EArity else unify_func n s lbs lr rbs rr
       | TProperty a, TProperty b => unify n s a b
       | _, _ => UErr EMismatch
       end.

Lemma unify_eq n s l r : unify (S n) s l r =
  match reduce n s l, reduce n s r with
  | Some l', Some r' => unify_step n s l' r'
  | _, _ => UFuel
  end.
Proof.
  unfold unify. cbn [unify_gen]. destruct (reduce n s l) as [l'|]; [|reflexivity]. destruct (reduce n s r) as [r'|]; [|reflexivity].
  unfold unify_step. destruct (tag_eqb l' r'); [reflexivity|].
  destruct l' as [lb|lp|lbs lr|lv]; destruct r' as [rb|rp|rbs rr|rv]; try reflexivity.
  destruct (negb (Nat.eqb (length lbs) (length rbs))); [reflexivity|].
  unfold unify_func. rewrite unify_all_cons. unfold unify. destruct (unify_gen occurs n s lr rr) as [s1|e|]; try reflexivity.
  generalize (0 + 1)%N. revert s1 rbs. induction lbs as [|a lbs IH]; intros s1 [|b rbs] i; try reflexivity.
  cbn [combine]. rewrite unify_all_cons. unfold unify. destruct (unify_gen occurs n s1 a b); try reflexivity. apply IH.
Qed.

Lemma unify_eq_apply s l r m : TRI s -> 1 + depth l + depth r + cost s <= m ->
  unify (S m) s l r = unify_step m s (apply s l) (apply s r).
Proof. intros Htri Hm. rewrite unify_eq, !(reduce_exact s Htri) by lia. reflexivity. Qed.

(** neither tag is a variable and the two differ at the root *)
Definition clash (l r : tag) : Prop :=
  match l, r with
  | TVar _, _ | _, TVar _ | TProperty _, TProperty _ | TFunc _ _, TFunc _ _ => False
  | TBase a, TBase b => a <> b
  | _, _ => True
  end.

(** the cases of [unify_step]: which one applies depends on the two tags only, the answer (last
    index) also on the fuel *)
Inductive step_view (s : subst) : tag -> tag -> (nat -> ures) -> Prop :=
| step_same t : step_view s t t (fun _ => UOk s)
| step_var_l v t : t <> TVar v -> step_view s (TVar v) t (fun _ => bind s v t)
| step_var_r v t : t <> TVar v -> step_view s t (TVar v) (fun _ => bind s v t)
| step_property a b : step_view s (TProperty a) (TProperty b) (fun n => unify n s a b)
| step_arity lbs lr rbs rr : length lbs <> length rbs ->
    step_view s (TFunc lbs lr) (TFunc rbs rr) (fun _ => UErr EArity)
| step_func lbs lr rbs rr : length lbs = length rbs ->
    step_view s (TFunc lbs lr) (TFunc rbs rr) (fun n => unify_func n s lbs lr rbs rr)
| step_clash l r : clash l r -> step_view s l r (fun _ => UErr EMismatch).

Lemma unify_step_view s l r : exists f, step_view s l r f /\ forall n, unify_step n s l r = f n.
Proof.
  exists (fun n => unify_step n s l r). split; [|reflexivity].
  unfold unify_step. destruct (tag_eqb_spec l r) as [<-|Hne].
  - constructor.
  - destruct l as [lb|lp|lbs lr|lv]; destruct r as [rb|rp|rbs rr|rv]; try (constructor; cbn; first [exact I|congruence]).
    destruct (Nat.eqb_spec (length lbs) (length rbs)) as [L|L]; constructor; exact L.
Qed.

Lemma map_eq_combine {A B} (f : A -> B) : forall ls rs, length ls = length rs ->
  (map f ls = map f rs <-> Forall (fun e => f (fst e) = f (snd e)) (combine ls rs)).
Proof.
  induction ls as [|a ls IH]; intros [|b rs] L; try discriminate L; cbn [map combine].
  - split; [constructor|reflexivity].
  - injection L as L. rewrite Forall_cons_iff, <- (IH rs L). cbn [fst snd].
    split; [intros [= Ha Hl]; split; assumption|intros [-> ->]; reflexivity].
Qed.

Definition solves (s : subst) (eqs : list (tag * tag)) : Prop :=
  Forall (fun e => apply s (fst e) = apply s (snd e)) eqs.

(** the hypothesis is the induction hypothesis of [unify_sound], whose function case runs this
    iteration at the fuel below; [unify_all_weaken_if] and [unify_all_complete_if] have this
    shape for the same reason *)
Lemma unify_all_sound_if n :
  (forall s l r s', TRI s -> unify n s l r = UOk s' -> unify_spec s l r s') ->
  forall eqs s i s' j, TRI s -> unify_all n s eqs i = (UOk s', j) ->
  TRI s' /\ extends s s' /\ solves s' eqs.
Proof.
  intros Hu. induction eqs as [|[l r] eqs IH]; intros s i s' j Htri H.
  - inversion H; subst. split; [exact Htri|]. split; [apply extends_refl|constructor].
  - rewrite unify_all_cons in H. destruct (unify n s l r) as [s1| |] eqn:E; try (inversion H; fail).
    destruct (Hu _ _ _ _ Htri E) as (A & B & C).
    destruct (IH _ _ _ _ A H) as (A' & B' & C').
    split; [exact A'|]. split; [eapply extends_trans; eassumption|].
    constructor; [|exact C']. cbn [fst snd]. eapply extends_eq; eassumption.
Qed.

Lemma bind_sound s v u s' :
  TRI s -> reduced s (TVar v) -> reduced s u -> bind s v u = UOk s' -> unify_spec s (TVar v) u s'.
Proof.
  unfold bind. intros Htri Hv Hu H. destruct (occurs v u) eqn:Hocc; [discriminate|]. injection H as <-.
  split; [|split].
  - cbn [TRI]. repeat split; try assumption. apply Hv, occurs_var.
  - exists [(v, u)]. reflexivity.
  - cbn [apply]. rewrite (apply_reduced s _ Hv), (apply_reduced s _ Hu). cbn [apply_one]. rewrite N.eqb_refl.
    rewrite apply_one_id by exact Hocc. reflexivity.
Qed.

Lemma unify_sound : forall n s l r s',
  TRI s -> unify n s l r = UOk s' -> unify_spec s l r s'.
Proof.
  induction n as [|n IH]; intros s l r s' Htri H; [discriminate|].
  rewrite unify_eq in H.
  destruct (reduce n s l) as [l'|] eqn:El; [|discriminate].
  destruct (reduce n s r) as [r'|] eqn:Er; [|discriminate].
  destruct (reduce_apply s Htri _ _ _ El) as [El1 El2].
  destruct (reduce_apply s Htri _ _ _ Er) as [Er1 Er2].
  apply (unify_spec_reduced s l r l' r' s' El1 El2 Er1 Er2). clear l r El Er El1 Er1.
  destruct (unify_step_view s l' r') as (f & Hv & Hf). rewrite Hf in H. clear Hf.
  destruct Hv as [t|v t _|v t _|a b|lbs lr rbs rr _|lbs lr rbs rr Elen|l' r' _]; cbn beta in H.
  - injection H as <-. split; [exact Htri|]. split; [apply extends_refl|reflexivity].
  - exact (bind_sound s v t s' Htri El2 Er2 H).
  - exact (unify_spec_sym _ _ _ _ (bind_sound s v t s' Htri Er2 El2 H)).
  - destruct (IH _ _ _ _ Htri H) as (A & B & C). split; [exact A|]. split; [exact B|].
    rewrite !apply_property, C. reflexivity.
  - discriminate H.
  - unfold unify_func in H. destruct (unify_all n s ((lr, rr) :: combine lbs rbs) 0) as [res j] eqn:E. cbn [fst] in H. subst res.
    destruct (unify_all_sound_if n IH _ _ _ _ _ Htri E) as (A & B & C).
    apply Forall_cons_iff in C as [Cr Cbs]. apply (map_eq_combine (apply s') lbs rbs Elen) in Cbs.
    split; [exact A|]. split; [exact B|]. rewrite !apply_func, Cbs. f_equal. exact Cr.
  - discriminate H.
Qed.

Lemma unify_TRI n s l r s' : TRI s -> unify n s l r = UOk s' -> TRI s'.
Proof. intros T E. apply (unify_sound n s l r s' T E). Qed.

Theorem unify_all_sound : forall n eqs s i s' j,
  TRI s -> unify_all n s eqs i = (UOk s', j) ->
  TRI s' /\ extends s s' /\ solves s' eqs.
Proof. intros n. apply unify_all_sound_if, unify_sound. Qed.

(** what inference leaves behind is triangular, so the [substitute] phase (one
    [reduce] per syntax node) terminates within the explicit fuel bound *)
Corollary substitute_total n eqs s' j t :
  unify_all n [] eqs 0 = (UOk s', j) ->
  forall m, 1 + depth t + cost s' <= m -> exists r, reduce m s' t = Some r /\ r = apply s' t.
Proof.
  intros H m Hm. destruct (unify_all_sound n eqs [] 0%N s' j I H) as (A & _ & _).
  exists (apply s' t). split; [exact (reduce_exact s' A t m Hm)|reflexivity].
Qed.

(** the pinned tree's occurs check let a cyclic binding through (F2) *)
Lemma reduce_diverges_pinned :
  unify_gen occurs_pinned 3 [] (TVar 0) (TProperty (TVar 0)) = UOk [(0%N, TProperty (TVar 0))]
  /\ forall n, reduce n [(0%N, TProperty (TVar 0))] (TVar 0) = None.
Proof.
  split; [reflexivity|]. set (s := [(0%N, TProperty (TVar 0))]).
  assert (H : forall n, reduce n s (TVar 0) = None /\ reduce n s (TProperty (TVar 0)) = None).
  { induction n as [|n [IH1 IH2]]; [split; reflexivity|]. split.
    - cbn [reduce lookup]. cbn. exact IH2.
    - cbn [reduce]. rewrite IH1. reflexivity. }
  intros n. apply H.
Qed.

(** the fixed check rejects it *)
Lemma self_property_rejected :
  unify 3 [] (TVar 0) (TProperty (TVar 0)) = UErr ERecursive.
Proof. reflexivity. Qed.

Fixpoint vars (t : tag) : list N :=
  match t with
  | TVar v => [v]
  | TFunc bs r => vars r ++ flat_map vars bs
  | TProperty t' => vars t'
  | TBase _ => []
  end.

Lemma occurs_vars v : forall t, occurs v t = true <-> In v (vars t).
Proof.
  induction t as [b|t' IH|bs t' IHbs IHr|w] using tag_ind'; cbn [occurs vars].
  - split; [discriminate|contradiction].
  - exact IH.
  - rewrite orb_true_iff, in_app_iff, IHr. apply or_iff_compat_l.
    rewrite existsb_exists, in_flat_map. rewrite Forall_forall in IHbs.
    split; intros [x [Hin Hx]]; exists x; (split; [exact Hin|]); apply (IHbs x Hin); exact Hx.
  - rewrite N.eqb_eq. cbn. split; [intros ->; left; reflexivity | intros [H|[]]; congruence].
Qed.
