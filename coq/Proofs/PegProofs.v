(** Generic theorems about the interpreters of Model/Peg.v, for every grammar, token list and
    fuel (properties C12, C11, C04):
    - more fuel never changes a result ([run_weaken]);
    - what holds of every match is proved by induction on the ways to match ([run_Ok_ind]);
    - the memo table is invisible: whatever [runm] returns, [run] returns ([memo_transparent]),
      and where [run] answers, [runm] answers the same on the same fuel ([runm_exact]). *)
From Coq Require Import Lia Arith PeanoNat.
From Oal Require Import Peg.

Section Proofs.
Variable class_ok : N -> N -> bool.
Variable is_trivia : N -> bool.
Variable K_IDENT_REF : N.
Variable g : nat -> pexp.
Variable toks : list N.

Notation run := (Peg.run class_ok is_trivia K_IDENT_REF g toks).
Notation runm := (Peg.runm class_ok is_trivia K_IDENT_REF g toks).
Notation skip := (Peg.skip is_trivia toks).
Notation kind_at := (Peg.kind_at toks).

Lemma kind_at_lt s k : kind_at s = Some k -> s < length toks.
Proof. unfold Peg.kind_at. intros H. apply nth_error_Some. congruence. Qed.

Lemma skip_from_bounds rest : forall s, s <= skip_from is_trivia rest s <= s + length rest.
Proof.
  induction rest as [|k rest IH]; intros s; cbn [skip_from length]; [lia|].
  destruct (is_trivia k); [specialize (IH (S s)); lia|lia].
Qed.

Lemma skip_bounds s : s <= length toks -> s <= skip s <= length toks.
Proof. intros H. unfold Peg.skip. pose proof (skip_from_bounds (skipn s toks) s) as B. rewrite skipn_length in B. lia. Qed.

Lemma run_weaken : forall n m p s acc r, run n p s acc = r -> r <> Fuel -> n <= m -> run m p s acc = r.
Proof.
  induction n as [|n IHn]; intros m p s acc r H Hr Hle; [cbn in H; congruence|].
  destruct m as [|m]; [lia|].
  assert (IH : forall p s acc r, run n p s acc = r -> r <> Fuel -> run m p s acc = r)
    by (intros; eapply IHn; [eassumption|assumption|lia]).
  clear IHn Hle.
  (* each sub-evaluation either ran out of fuel, and then so did the whole, or answers the same on [m] *)
  destruct p; cbn [Peg.run] in *;
    repeat match type of H with
           | context [match run n ?a ?s0 ?acc0 with _ => _ end] =>
               let E := fresh "E" in
               destruct (run n a s0 acc0) eqn:E; [| |congruence]; rewrite (IH _ _ _ _ E) by discriminate
           end;
    auto.
Qed.

Lemma run_det n m p s acc : run n p s acc <> Fuel -> run m p s acc <> Fuel -> run n p s acc = run m p s acc.
Proof.
  intros Hn Hm. destruct (Nat.le_ge_cases n m) as [H|H].
  - symmetry. exact (run_weaken n m _ _ _ _ eq_refl Hn H).
  - exact (run_weaken m n _ _ _ _ eq_refl Hm H).
Qed.

Lemma run_both {a sa acca ra b sb accb rb} :
  (ra <> Fuel -> exists m, run m a sa acca = ra) -> (rb <> Fuel -> exists m, run m b sb accb = rb) ->
  ra <> Fuel -> rb <> Fuel -> exists m, run m a sa acca = ra /\ run m b sb accb = rb.
Proof.
  intros Xa Xb Ha Hb. destruct (Xa Ha) as [ma Hma]. destruct (Xb Hb) as [mb Hmb]. exists (Nat.max ma mb).
  split; [apply (run_weaken ma)|apply (run_weaken mb)]; auto; lia.
Qed.

(** what [Collapse k] makes of the matches of its body *)
Definition collapse (k : N) (m : list tree) : list tree :=
  match m with [x] => [x] | _ => [Node k m] end.

(** One premise for each way an expression can match. What holds of every match can be proved
    from these without going through the interpreter again. *)
Lemma run_Ok_ind (P : pexp -> nat -> list tree -> nat -> list tree -> Prop) :
  (forall s acc, P Eps s acc s []) ->
  (forall c s acc k, kind_at s = Some k -> class_ok c k = true -> P (Tok c) s acc (skip (S s)) [Leaf s]) ->
  (forall a b s acc s1 m1 s2 m2, P a s acc s1 m1 -> P b s1 (acc ++ m1) s2 m2 -> P (Seq2 a b) s acc s2 (m1 ++ m2)) ->
  (forall a b s acc s' ms, P a s acc s' ms -> P (Alt2 a b) s acc s' ms) ->
  (forall a b s acc s' ms, P b s acc s' ms -> P (Alt2 a b) s acc s' ms) ->
  (forall k a s acc s' ms, P a s [] s' ms -> P (Mk k a) s acc s' [Node k ms]) ->
  (forall k a s acc s' ms, P a s [] s' ms -> P (Collapse k a) s acc s' (collapse k ms)) ->
  (forall nt s acc s' ms, P (g nt) s [] s' ms -> P (Call nt) s acc s' ms) ->
  (forall tag a s acc s' ms, P a s [] s' ms -> P (Memo tag a) s acc s' ms) ->
  (forall i t s acc s1 m1 s2 m2, P i s acc s1 m1 -> P t s1 (acc ++ m1) s2 m2 -> P (IfThen i t) s acc s2 (m1 ++ m2)) ->
  (forall i t s acc, P (IfThen i t) s acc s []) ->
  (forall s acc, P NotRefFunc s acc s []) ->
  forall n p s acc s' ms, run n p s acc = Ok s' ms -> P p s acc s' ms.
Proof.
  intros HEps HTok HSeq HAltl HAltr HMk HCollapse HCall HMemo HIfThen HIfNot HNotRef.
  induction n as [|n IH]; intros p s acc s' ms H; [discriminate|].
  destruct p; cbn [Peg.run] in H.
  - injection H as <- <-. apply HEps.
  - destruct (kind_at s) as [k|] eqn:Ek; [|discriminate]. destruct (class_ok c k) eqn:Ec; [|discriminate].
    injection H as <- <-. apply (HTok c s acc k Ek Ec).
  - destruct (run n p1 s acc) as [s1 m1| |] eqn:E1; try discriminate.
    destruct (run n p2 s1 (acc ++ m1)) as [s2 m2| |] eqn:E2; try discriminate.
    injection H as <- <-. apply (HSeq _ _ _ _ s1 m1); apply IH; assumption.
  - destruct (run n p1 s acc) as [s1 m1| |] eqn:E1; try discriminate.
    + injection H as <- <-. apply HAltl, IH, E1.
    + apply HAltr, IH, H.
  - destruct (run n p s []) as [s1 m1| |] eqn:E1; try discriminate. injection H as <- <-. apply HMk, IH, E1.
  - destruct (run n p s []) as [s1 m1| |] eqn:E1; try discriminate.
    assert (E : Ok s' ms = Ok s1 (collapse k m1)) by (destruct m1 as [|x [|y l]]; symmetry; exact H).
    injection E as -> ->. apply HCollapse, IH, E1.
  - apply HCall, IH, H.
  - apply HMemo, IH, H.
  - destruct (run n p1 s acc) as [s1 m1| |] eqn:E1; try discriminate.
    + destruct (run n p2 s1 (acc ++ m1)) as [s2 m2| |] eqn:E2; try discriminate.
      injection H as <- <-. apply (HIfThen _ _ _ _ s1 m1); apply IH; assumption.
    + injection H as <- <-. apply HIfNot.
  - destruct (ref_func K_IDENT_REF toks acc); [discriminate|]. injection H as <- <-. apply HNotRef.
Qed.

Variable tag_body : N -> pexp.

(** every memoised expression is determined by its tag *)
Fixpoint wf_pexp (p : pexp) : Prop :=
  match p with
  | Memo tag a => a = tag_body tag /\ wf_pexp a
  | Seq2 a b | Alt2 a b | IfThen a b => wf_pexp a /\ wf_pexp b
  | Mk _ a | Collapse _ a => wf_pexp a
  | _ => True
  end.

Hypothesis g_wf : forall nt, wf_pexp (g nt).

Definition table_ok (st : mstate) : Prop :=
  forall s tag r, tlookup (table st) s tag = Some r ->
    r <> Fuel /\ exists m, run m (tag_body tag) s [] = r.

Theorem memo_transparent : forall n p s acc st r st',
  wf_pexp p -> table_ok st -> runm n p s acc st = (r, st') ->
  table_ok st' /\ (r <> Fuel -> exists m, run m p s acc = r).
Proof.
  induction n as [|n IH]; intros p s acc st r st' Hwf Hst H.
  { cbn in H. injection H as <- <-. split; [exact Hst|congruence]. }
  destruct p; cbn [Peg.runm] in H; cbn [wf_pexp] in Hwf.
  - injection H as <- <-. split; [exact Hst|]. intros _. exists 1. reflexivity.
  - assert (E : (r, st') = (run 1 (Tok c) s acc, mk_mstate (table st) (S (reads st)) (hits st)))
      by (cbn [Peg.run]; destruct (kind_at s) as [k|]; [destruct (class_ok c k)|]; symmetry; exact H).
    injection E as -> ->. split; [exact Hst|]. intros _. exists 1. reflexivity.
  - destruct Hwf as [Ha Hb].
    destruct (runm n p1 s acc st) as [ra st1] eqn:Ea. destruct (IH _ _ _ _ _ _ Ha Hst Ea) as [T1 X1].
    destruct ra as [s1 m1| |].
    + destruct (runm n p2 s1 (acc ++ m1) st1) as [rb st2] eqn:Eb. destruct (IH _ _ _ _ _ _ Hb T1 Eb) as [T2 X2].
      assert (E : (r, st') = (match rb with Ok s2 m2 => Ok s2 (m1 ++ m2) | _ => rb end, st2))
        by (destruct rb; symmetry; exact H).
      injection E as -> ->. split; [exact T2|]. intros Hr.
      destruct (run_both X1 X2) as (m & Hma & Hmb); [discriminate|destruct rb; congruence|].
      exists (S m). cbn [Peg.run]. rewrite Hma, Hmb. destruct rb; reflexivity.
    + injection H as <- <-. split; [exact T1|]. intros _. destruct X1 as [ma Hma]; [discriminate|].
      exists (S ma). cbn [Peg.run]. rewrite Hma. reflexivity.
    + injection H as <- <-. split; [exact T1|congruence].
  - destruct Hwf as [Ha Hb].
    destruct (runm n p1 s acc st) as [ra st1] eqn:Ea. destruct (IH _ _ _ _ _ _ Ha Hst Ea) as [T1 X1].
    destruct ra as [s1 m1| |].
    + injection H as <- <-. split; [exact T1|]. intros _. destruct X1 as [ma Hma]; [discriminate|].
      exists (S ma). cbn [Peg.run]. rewrite Hma. reflexivity.
    + destruct (IH _ _ _ _ _ _ Hb T1 H) as [T2 X2]. split; [exact T2|]. intros Hr.
      destruct (run_both X1 X2 ltac:(discriminate) Hr) as (m & Hma & Hmb).
      exists (S m). cbn [Peg.run]. rewrite Hma. exact Hmb.
    + injection H as <- <-. split; [exact T1|congruence].
  - destruct (runm n p s [] st) as [ra st1] eqn:Ea. destruct (IH _ _ _ _ _ _ Hwf Hst Ea) as [T1 X1].
    destruct ra as [s1 m1| |]; injection H as <- <-; (split; [exact T1|]); intros Hr; try congruence;
      destruct (X1 ltac:(discriminate)) as [ma Hma]; exists (S ma); cbn [Peg.run]; rewrite Hma; reflexivity.
  - destruct (runm n p s [] st) as [ra st1] eqn:Ea. destruct (IH _ _ _ _ _ _ Hwf Hst Ea) as [T1 X1].
    destruct ra as [s1 [|x [|y m1]]| |]; injection H as <- <-; (split; [exact T1|]); intros Hr; try congruence;
      destruct (X1 ltac:(discriminate)) as [ma Hma]; exists (S ma); cbn [Peg.run]; rewrite Hma; reflexivity.
  - destruct (IH _ _ _ _ _ _ (g_wf nt) Hst H) as [T1 X1]. split; [exact T1|]. intros Hr.
    destruct (X1 Hr) as [ma Hma]. exists (S ma). exact Hma.
  - destruct Hwf as [-> Ha].
    destruct (tlookup (table st) s tag) as [rc|] eqn:El.
    + injection H as <- <-. split; [exact Hst|]. intros _.
      destruct (Hst _ _ _ El) as [_ [m Hm]]. exists (S m). exact Hm.
    + destruct (runm n (tag_body tag) s [] st) as [ra st1] eqn:Ea. destruct (IH _ _ _ _ _ _ Ha Hst Ea) as [T1 X1].
      assert (Hnew : ra <> Fuel -> table_ok (mk_mstate (((s, tag), ra) :: table st1) (reads st1) (hits st1))).
      { intros Hne s0 tag0 r0 Hl. cbn [table tlookup] in Hl.
        destruct (Nat.eqb s0 s && N.eqb tag0 tag) eqn:Ekey; [|exact (T1 _ _ _ Hl)].
        apply andb_true_iff in Ekey. destruct Ekey as [->%Nat.eqb_eq ->%N.eqb_eq]. injection Hl as <-.
        split; [exact Hne|exact (X1 Hne)]. }
      assert (X : ra <> Fuel -> exists m, run m (Memo tag (tag_body tag)) s acc = ra)
        by (intros Hne; destruct (X1 Hne) as [ma Hma]; exists (S ma); exact Hma).
      destruct ra as [s1 m1| |]; injection H as <- <-; (split; [|exact X]); [| |exact T1]; apply Hnew; discriminate.
  - destruct Hwf as [Ha Hb].
    destruct (runm n p1 s acc st) as [ra st1] eqn:Ea. destruct (IH _ _ _ _ _ _ Ha Hst Ea) as [T1 X1].
    destruct ra as [s1 m1| |].
    + destruct (runm n p2 s1 (acc ++ m1) st1) as [rb st2] eqn:Eb. destruct (IH _ _ _ _ _ _ Hb T1 Eb) as [T2 X2].
      assert (E : (r, st') = (match rb with Ok s2 m2 => Ok s2 (m1 ++ m2) | _ => rb end, st2))
        by (destruct rb; symmetry; exact H).
      injection E as -> ->. split; [exact T2|]. intros Hr.
      destruct (run_both X1 X2) as (m & Hma & Hmb); [discriminate|destruct rb; congruence|].
      exists (S m). cbn [Peg.run]. rewrite Hma, Hmb. destruct rb; reflexivity.
    + injection H as <- <-. split; [exact T1|]. intros _. destruct X1 as [ma Hma]; [discriminate|].
      exists (S ma). cbn [Peg.run]. rewrite Hma. reflexivity.
    + injection H as <- <-. split; [exact T1|congruence].
  - injection H as <- <-. split; [exact Hst|]. intros _. exists 1. reflexivity.
Qed.

Lemma table_ok_empty : table_ok (mk_mstate [] 0 0).
Proof. intros s tag r Hl. discriminate Hl. Qed.

Corollary memo_transparent_top n p s acc r st' :
  wf_pexp p -> runm n p s acc (mk_mstate [] 0 0) = (r, st') -> r <> Fuel -> exists m, run m p s acc = r.
Proof. intros Hwf H Hr. exact (proj2 (memo_transparent _ _ _ _ _ _ _ Hwf table_ok_empty H) Hr). Qed.

(* [H] says that a run did not run out of fuel, as it would have if the sub-run of the goal had *)
Ltac first_run H := let E := fresh "E" in intros E; rewrite E in H; exact (H eq_refl).

(** Conversely, with fuel on which the plain interpreter answers, the memoising one gives the
    same answer: a table hit can only spare fuel. *)
Lemma runm_exact : forall n p s acc st, wf_pexp p -> table_ok st -> run n p s acc <> Fuel ->
  fst (runm n p s acc st) = run n p s acc.
Proof.
  induction n as [|n IH]; intros p s acc st Hwf Hst Hr; [reflexivity|].
  (* the induction hypothesis together with what [memo_transparent] says of the table after a sub-run,
     which the next sub-run starts from *)
  assert (sub : forall q s0 acc0 st0, wf_pexp q -> table_ok st0 -> run n q s0 acc0 <> Fuel ->
            exists st1, runm n q s0 acc0 st0 = (run n q s0 acc0, st1) /\ table_ok st1).
  { intros q s0 acc0 st0 Hq Ht Hne. pose proof (IH q s0 acc0 st0 Hq Ht Hne) as E.
    destruct (runm n q s0 acc0 st0) as [r st1] eqn:H. cbn [fst] in E. subst r.
    exists st1. split; [reflexivity|exact (proj1 (memo_transparent _ _ _ _ _ _ _ Hq Ht H))]. }
  clear IH.
  destruct p; cbn [Peg.run Peg.runm] in *; cbn [wf_pexp] in Hwf.
  - reflexivity.
  - destruct (kind_at s) as [k|]; [destruct (class_ok c k)|]; reflexivity.
  - destruct Hwf as [Ha Hb].
    destruct (sub p1 s acc st Ha Hst) as (st1 & -> & T1); [first_run Hr|].
    destruct (run n p1 s acc) as [s1 m1| |]; [|reflexivity|reflexivity].
    destruct (sub p2 s1 (acc ++ m1) st1 Hb T1) as (st2 & -> & _); [first_run Hr|].
    destruct (run n p2 s1 (acc ++ m1)); reflexivity.
  - destruct Hwf as [Ha Hb].
    destruct (sub p1 s acc st Ha Hst) as (st1 & -> & T1); [first_run Hr|].
    destruct (run n p1 s acc) as [s1 m1| |]; [reflexivity| |reflexivity].
    destruct (sub p2 s acc st1 Hb T1) as (st2 & -> & _); [exact Hr|reflexivity].
  - destruct (sub p s [] st Hwf Hst) as (st1 & -> & _); [first_run Hr|].
    destruct (run n p s []); reflexivity.
  - destruct (sub p s [] st Hwf Hst) as (st1 & -> & _); [first_run Hr|].
    destruct (run n p s []) as [s1 [|x [|y l]]| |]; reflexivity.
  - destruct (sub (g nt) s [] st (g_wf nt) Hst Hr) as (st1 & -> & _). reflexivity.
  - destruct Hwf as [-> Ha]. destruct (tlookup (table st) s tag) as [rc|] eqn:El.
    + (* a hit: the table holds an answer of [run], and there is only one *)
      destruct (Hst _ _ _ El) as [Hrc [m Hm]]. subst rc. symmetry. apply run_det; assumption.
    + destruct (sub (tag_body tag) s [] st Ha Hst Hr) as (st1 & -> & _).
      destruct (run n (tag_body tag) s []); [reflexivity|reflexivity|contradiction].
  - destruct Hwf as [Ha Hb].
    destruct (sub p1 s acc st Ha Hst) as (st1 & -> & T1); [first_run Hr|].
    destruct (run n p1 s acc) as [s1 m1| |]; [|reflexivity|reflexivity].
    destruct (sub p2 s1 (acc ++ m1) st1 Hb T1) as (st2 & -> & _); [first_run Hr|].
    destruct (run n p2 s1 (acc ++ m1)); reflexivity.
  - reflexivity.
Qed.
End Proofs.
