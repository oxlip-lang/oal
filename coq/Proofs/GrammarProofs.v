(** The oal grammar is well formed, and the generic theorems of PegProofs and PegYield instantiated
    for it (termination is in GrammarTerm, the memo table in MemoBound, trivia in TriviaProofs). *)
From Coq Require Import Lia.
From Oal Require Import Peg Grammar PegProofs PegYield.
Local Open Scope nat_scope.

Definition oal_tag_body (tag : N) : pexp :=
  if N.eqb tag TAG_TERM then Call P_TERM else alt [Call P_RECURSION; Call P_RELATION_KIND].

(* the numbers of [oal_grammar] that stand for an expression are below 63 (GrammarTerm.NP) *)
Lemma oal_wf : forall nt, wf_pexp oal_tag_body (oal_grammar nt).
Proof.
  intros nt.
  do 63 (destruct nt as [|nt]; [repeat split|]).
  exact I.
Qed.

Theorem oal_memo_transparent n toks r st :
  parse_memo n toks = (r, st) -> r <> Fuel -> exists m, parse_pure m toks = r.
Proof.
  unfold parse_memo, parse_pure. intros H Hr.
  apply memo_transparent_top with (tag_body := oal_tag_body) (n := n) (st' := st);
    [exact oal_wf|exact I|exact H|exact Hr].
Qed.

Theorem oal_parse_stable n m toks r : parse_pure n toks = r -> r <> Fuel -> n <= m -> parse_pure m toks = r.
Proof. unfold parse_pure. apply run_weaken. Qed.

Theorem oal_yield n toks s' ms :
  parse_pure n toks = Ok s' ms ->
  s' <= length toks /\ leaves_of ms = ntriv is_trivia toks 0 s'.
Proof. unfold parse_pure. intros H. apply yield_from_head in H as (_ & B & C). auto. Qed.

(** a parse of a small program: a document with an object, its memoised parse hits the table *)
Example oal_parse_example :
  let toks := [20; 0; 26; 0; 48; 0; 32; 0; 31; 0; 3; 42; 0; 33; 0; 40]%N in
  exists t st, parse_memo 200 toks = (Ok 16 [t], st) /\ 0 < hits st /\ parse_pure 200 toks = Ok 16 [t]
               /\ leaves t = [0; 2; 4; 6; 8; 10; 11; 13; 15].
Proof. cbv zeta. eexists. eexists. vm_compute. repeat split; try reflexivity. lia. Qed.
