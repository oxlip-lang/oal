(** The handlers over a folder (Model/Folder.v): go-to-definition answers with the node of the
    binder in whichever module it lives, find-references with exactly the uses bound to the
    definition across the modules, and the two are inverse; rename edits the identifier of the
    definition and exactly the references, prepareRename on a variable announces the identifier
    span that rename then edits, a built-in is never renamed, and renaming a qualifier edits its
    uses. *)
From Coq Require Import Lia.
From Oal Require Import Handlers HandlersProofs Folder.

Lemma mod_at_ok f m : folder_ok f -> mod_ok (mod_at f m).
Proof.
  unfold folder_ok, mod_at. intros H. destruct (nth_in_or_default m (f_mods f) no_mod) as [Hin| ->].
  - rewrite Forall_forall in H. apply H. exact Hin.
  - split; [exact I|constructor].
Qed.

Lemma mod_at_nth_error f m fm : nth_error (f_mods f) m = Some fm -> mod_at f m = fm.
Proof. unfold mod_at. intros H. apply nth_error_nth. exact H. Qed.

Lemma mod_ok_nth f m fm : folder_ok f -> nth_error (f_mods f) m = Some fm -> mod_ok fm.
Proof. intros Hok Hn. rewrite <- (mod_at_nth_error f m fm Hn). apply mod_at_ok, Hok. Qed.

Theorem f_goto_correct f m idx u d i n :
  folder_ok f -> In u (uses_of (mod_at f m)) -> u_start u <= idx < u_end u ->
  u_def u = Some d -> internal f d = false -> locate f d = Some (i, n) ->
  f_goto f m idx = Some (i, n_start n, n_end n).
Proof.
  intros Hok Hin Hidx Hd Hint Hloc. unfold f_goto.
  rewrite (goto_correct _ (proj1 (mod_at_ok f m Hok)) u idx Hin Hidx), Hd, Hint, Hloc. reflexivity.
Qed.

Theorem f_goto_builtin f m idx u d :
  folder_ok f -> In u (uses_of (mod_at f m)) -> u_start u <= idx < u_end u ->
  u_def u = Some d -> internal f d = true -> f_goto f m idx = None.
Proof.
  intros Hok Hin Hidx Hd Hint. unfold f_goto.
  rewrite (goto_correct _ (proj1 (mod_at_ok f m Hok)) u idx Hin Hidx), Hd, Hint. reflexivity.
Qed.

Theorem f_goto_outside f m idx :
  (forall u, In u (uses_of (mod_at f m)) -> ~ (u_start u <= idx < u_end u)) -> f_goto f m idx = None.
Proof. intros H. unfold f_goto. rewrite (goto_outside _ _ H). reflexivity. Qed.

Lemma refs_from_exact ms k d i s e :
  In (i, s, e) (refs_from ms k d) <->
  exists j fm u, nth_error ms j = Some fm /\ i = (k + j)%nat /\ In u (uses_of fm) /\ u_def u = Some d /\ s = u_istart u /\ e = u_iend u.
Proof.
  revert k. induction ms as [|fm ms IH]; intros k; cbn [refs_from].
  - split; [intros []|]. intros (j & fm & u & H & _). destruct j; discriminate.
  - rewrite in_app_iff, in_map_iff, IH. split.
    + intros [(u & Heq & Hu)|(j & fm' & u & Hn & Hi & Hu)].
      * injection Heq as <- <- <-. apply refs_exact in Hu. destruct Hu as [Hu Hd].
        exists 0%nat, fm, u. cbn [nth_error]. repeat split; try assumption. lia.
      * exists (S j), fm', u. cbn [nth_error]. repeat split; try tauto. lia.
    + intros (j & fm' & u & Hn & Hi & Hu & Hd & Hs & He). destruct j as [|j]; cbn [nth_error] in Hn.
      * injection Hn as <-. left. exists u. split; [|apply refs_exact; tauto].
        subst. rewrite <- plus_n_O. reflexivity.
      * right. exists j, fm', u. repeat split; try assumption. lia.
Qed.

Theorem f_refs_exact f d i s e :
  In (i, s, e) (f_refs f d) <->
  exists fm u, nth_error (f_mods f) i = Some fm /\ In u (uses_of fm) /\ u_def u = Some d /\ s = u_istart u /\ e = u_iend u.
Proof.
  unfold f_refs. rewrite refs_from_exact. split.
  - intros (j & fm & u & Hn & Hi & H). cbn in Hi. subst j. exists fm, u. tauto.
  - intros (fm & u & Hn & H). exists i, fm, u. cbn. tauto.
Qed.

Theorem f_refs_inverse f d md n :
  folder_ok f -> internal f d = false -> locate f d = Some (md, n) ->
  forall i s e, In (i, s, e) (f_refs f d) -> f_goto f i s = Some (md, n_start n, n_end n).
Proof.
  intros Hok Hint Hloc i s e Hin. apply f_refs_exact in Hin. destruct Hin as (fm & u & Hn & Hu & Hd & -> & _).
  apply f_goto_correct with (u := u) (d := d); try assumption.
  - rewrite (mod_at_nth_error f i fm Hn). exact Hu.
  - pose proof (ordered_wf _ (proj1 (mod_ok_nth f i fm Hok Hn)) u Hu). lia.
Qed.

(** [decl_ident_at] and [decl_ident_span_at] are [find] with one test: a declaration whose
    identifier holds the cursor *)
Definition decl_ident_hit (idx : N) (n : dnode) : bool := n_decl n && contains (n_istart n) (n_iend n) idx.

Lemma decl_ident_hit_spec idx n : decl_ident_hit idx n = true <-> n_decl n = true /\ n_istart n <= idx < n_iend n.
Proof. unfold decl_ident_hit. rewrite andb_true_iff, contains_spec. reflexivity. Qed.

Lemma decl_ident_at_find ns idx : decl_ident_at ns idx = option_map n_id (find (decl_ident_hit idx) ns).
Proof. induction ns as [|n ns IH]; cbn [decl_ident_at find]; [|rewrite IH; unfold decl_ident_hit; destruct (_ && _)]; reflexivity. Qed.

Lemma decl_ident_span_at_find ns idx :
  decl_ident_span_at ns idx = option_map (fun n => (n_istart n, n_iend n)) (find (decl_ident_hit idx) ns).
Proof. induction ns as [|n ns IH]; cbn [decl_ident_span_at find]; [|rewrite IH; unfold decl_ident_hit; destruct (_ && _)]; reflexivity. Qed.

Lemma var_ident_at_find vs idx : var_ident_at vs idx = find (fun v => on_ident v idx) vs.
Proof. induction vs as [|v vs IH]; cbn [var_ident_at find]; [|rewrite IH]; reflexivity. Qed.

Lemma decl_ident_at_none ns idx :
  (forall n, In n ns -> n_decl n = true -> ~ (n_istart n <= idx < n_iend n)) -> decl_ident_at ns idx = None.
Proof.
  intros H. rewrite decl_ident_at_find, find_all_false; [reflexivity|].
  intros n Hn. apply not_true_iff_false. rewrite decl_ident_hit_spec. intros [Hd Hi]. exact (H n Hn Hd Hi).
Qed.

(** [folder_ok] orders the variables only: identifier spans of declarations may overlap, and
    the first one found must then be said to carry the same definition *)
Theorem f_find_definition_on_declaration f m idx n :
  In n (fm_nodes (mod_at f m)) -> n_decl n = true -> n_istart n <= idx < n_iend n ->
  (forall n', In n' (fm_nodes (mod_at f m)) -> n_decl n' = true -> n_istart n' <= idx < n_iend n' -> n_id n' = n_id n) ->
  f_find_definition f m idx = Some (n_id n).
Proof.
  intros Hin Hdecl Hidx Huniq. unfold f_find_definition. rewrite decl_ident_at_find.
  destruct (find_first (decl_ident_hit idx) _ n Hin) as (n' & -> & Hn' & Pn'); [apply decl_ident_hit_spec; tauto|].
  apply decl_ident_hit_spec in Pn'. cbn [option_map]. rewrite (Huniq n' Hn' (proj1 Pn') (proj2 Pn')). reflexivity.
Qed.

Lemma on_ident_inside fm v idx : mod_ok fm -> In v (fm_uses fm) ->
  on_ident v idx = true -> u_start (v_use v) <= idx < u_end (v_use v).
Proof.
  intros [Ho Hq] Hin H. pose proof (ordered_wf _ Ho _ (in_map v_use _ v Hin)) as Hwf.
  rewrite Forall_forall in Hq. specialize (Hq v Hin). unfold on_ident, vuse_ok in *.
  apply orb_true_iff in H. destruct H as [H|H].
  - apply contains_spec in H. lia.
  - destruct (v_q v) as [[[s e] x]|]; [|discriminate]. apply contains_spec in H. lia.
Qed.

(** the first variable with an identifier at the cursor is the only one: both contain the
    cursor, and distinct variables are apart *)
Lemma var_ident_at_inside fm : mod_ok fm ->
  forall v idx, In v (fm_uses fm) -> on_ident v idx = true -> var_ident_at (fm_uses fm) idx = Some v.
Proof.
  intros Hok v idx Hin Hon. rewrite var_ident_at_find.
  destruct (find_first (fun v => on_ident v idx) _ v Hin Hon) as (w & -> & Hw & Pw). f_equal.
  pose proof (on_ident_inside fm w idx Hok Hw Pw). pose proof (on_ident_inside fm v idx Hok Hin Hon).
  destruct (ordered_apart v_use _ (proj1 Hok) w v Hw Hin) as [E|[L|L]]; [exact E|lia|lia].
Qed.

Theorem f_find_definition_on_variable f m idx v :
  folder_ok f -> In v (fm_uses (mod_at f m)) -> on_ident v idx = true ->
  (forall n, In n (fm_nodes (mod_at f m)) -> n_decl n = true -> ~ (n_istart n <= idx < n_iend n)) ->
  f_find_definition f m idx = u_def (v_use v).
Proof.
  intros Hok Hin Hon Hno. unfold f_find_definition.
  rewrite (decl_ident_at_none _ _ Hno), (var_ident_at_inside _ (mod_at_ok f m Hok) v idx Hin Hon). reflexivity.
Qed.

Theorem f_references_of_declaration f m idx n :
  In n (fm_nodes (mod_at f m)) -> n_decl n = true -> n_istart n <= idx < n_iend n ->
  (forall n', In n' (fm_nodes (mod_at f m)) -> n_decl n' = true -> n_istart n' <= idx < n_iend n' -> n_id n' = n_id n) ->
  forall i s e, In (i, s, e) (f_references f m idx) <->
    exists fm u, nth_error (f_mods f) i = Some fm /\ In u (uses_of fm) /\ u_def u = Some (n_id n) /\ s = u_istart u /\ e = u_iend u.
Proof.
  intros Hin Hd Hidx Hu i s e. unfold f_references.
  rewrite (f_find_definition_on_declaration f m idx n Hin Hd Hidx Hu). apply f_refs_exact.
Qed.

Theorem f_references_inverse f m idx d md n :
  folder_ok f -> f_find_definition f m idx = Some d -> internal f d = false -> locate f d = Some (md, n) ->
  forall i s e, In (i, s, e) (f_references f m idx) -> f_goto f i s = Some (md, n_start n, n_end n).
Proof.
  intros Hok Hfd Hint Hloc i s e. unfold f_references. rewrite Hfd. apply (f_refs_inverse f d md n Hok Hint Hloc).
Qed.

Theorem f_references_outside f m idx :
  (forall n, In n (fm_nodes (mod_at f m)) -> n_decl n = true -> ~ (n_istart n <= idx < n_iend n)) ->
  (forall v, In v (fm_uses (mod_at f m)) -> on_ident v idx = false) ->
  f_references f m idx = [].
Proof.
  intros Hn Hv. unfold f_references, f_find_definition.
  rewrite (decl_ident_at_none _ _ Hn), var_ident_at_find, (find_all_false _ _ Hv). reflexivity.
Qed.

Theorem f_rename_external f m idx d i n :
  f_find_definition f m idx = Some d -> internal f d = false -> locate f d = Some (i, n) ->
  f_rename f m idx = (i, n_istart n, n_iend n) :: f_refs f d.
Proof. intros H1 H2 H3. unfold f_rename. rewrite H1, H2, H3. reflexivity. Qed.

Theorem f_rename_builtin f m idx d :
  f_find_definition f m idx = Some d -> internal f d = true -> f_rename f m idx = [].
Proof. intros H1 H2. unfold f_rename. rewrite H1, H2. reflexivity. Qed.

Theorem f_refs_disjoint f d i s1 e1 s2 e2 :
  folder_ok f -> In (i, s1, e1) (f_refs f d) -> In (i, s2, e2) (f_refs f d) -> (s1, e1) <> (s2, e2) ->
  e1 <= s2 \/ e2 <= s1.
Proof.
  intros Hok H1 H2 Hne. apply f_refs_exact in H1. apply f_refs_exact in H2.
  destruct H1 as (fm & u & Hn & Hu & Hd & -> & ->). destruct H2 as (fm' & v & Hn' & Hv & Hd' & -> & ->).
  rewrite Hn in Hn'. inversion Hn'; subst fm'.
  apply (rename_use_edits_disjoint (uses_of fm) d (proj1 (mod_ok_nth f i fm Hok Hn)) u v); try (apply refs_exact; tauto).
  congruence.
Qed.

Lemma qual_uses_In vs name s e : In (s, e) (qual_uses vs name) <-> exists v, In v vs /\ v_q v = Some (s, e, name).
Proof.
  unfold qual_uses. rewrite in_flat_map. split; intros (v & Hv & H); exists v; (split; [exact Hv|]).
  - destruct (v_q v) as [[[s0 e0] x]|]; [|destruct H]. destruct (N.eqb_spec x name) as [<-|]; [|destruct H].
    destruct H as [[= <- <-]|[]]. reflexivity.
  - rewrite H, N.eqb_refl. left. reflexivity.
Qed.

(** the qualifier of an import: its identifier and the first identifier of the variables it qualifies *)
Theorem f_rename_qualifier f m idx q :
  f_find_definition f m idx = None -> qual_at (fm_quals (mod_at f m)) idx = Some q ->
  forall i s e, In (i, s, e) (f_rename f m idx) <->
    (i = m /\ s = q_start q /\ e = q_end q) \/
    (i = m /\ exists v x, In v (fm_uses (mod_at f m)) /\ v_q v = Some (s, e, x) /\ x = q_name q).
Proof.
  intros H1 H2 i s e. unfold f_rename. rewrite H1, H2. cbn [In]. rewrite in_map_iff. split.
  - intros [[= <- <- <-]|((s' & e') & [= <- <- <-] & Hin)]; [left; auto|right].
    apply qual_uses_In in Hin. destruct Hin as (v & Hv & Eq). split; [reflexivity|]. exists v, (q_name q). auto.
  - intros [(-> & -> & ->)|(-> & v & x & Hv & Eq & ->)]; [left; reflexivity|right].
    exists (s, e). split; [reflexivity|]. apply qual_uses_In. exists v. auto.
Qed.

Lemma decl_ident_span_at_spec ns idx s e :
  decl_ident_span_at ns idx = Some (s, e) ->
  exists n, In n ns /\ n_decl n = true /\ n_istart n <= idx < n_iend n /\ s = n_istart n /\ e = n_iend n /\ decl_ident_at ns idx = Some (n_id n).
Proof.
  rewrite decl_ident_span_at_find, decl_ident_at_find. destruct (find (decl_ident_hit idx) ns) as [n|] eqn:E; [|discriminate].
  intros H. inversion H; subst. apply find_some in E. destruct E as [Hin P]. apply decl_ident_hit_spec in P.
  exists n. tauto.
Qed.

Theorem f_prepare_on_declaration f m idx s e :
  decl_ident_span_at (fm_nodes (mod_at f m)) idx = Some (s, e) ->
  f_prepare f m idx = Some (s, e) /\
  exists n, In n (fm_nodes (mod_at f m)) /\ n_decl n = true /\ s = n_istart n /\ e = n_iend n /\ f_find_definition f m idx = Some (n_id n).
Proof.
  intros H. split; [unfold f_prepare; rewrite H; reflexivity|].
  destruct (decl_ident_span_at_spec _ _ _ _ H) as (n & Hin & Hd & _ & Hs & He & Hdef).
  exists n. repeat split; try assumption. unfold f_find_definition. rewrite Hdef. reflexivity.
Qed.

(** on a declaration whose identifier is the cursor's, with definition identifiers unique in the
    folder ([locate] finds the node itself): the announced range is the first edit of the rename *)
Theorem f_prepare_rename_declaration f m idx s e n :
  decl_ident_span_at (fm_nodes (mod_at f m)) idx = Some (s, e) ->
  f_find_definition f m idx = Some (n_id n) -> internal f (n_id n) = false ->
  locate f (n_id n) = Some (m, n) -> s = n_istart n -> e = n_iend n ->
  exists rest, f_rename f m idx = (m, s, e) :: rest.
Proof.
  intros _ Hd Hi Hl -> ->. exists (f_refs f (n_id n)). apply f_rename_external; assumption.
Qed.

(** on a variable (either identifier) bound to an external definition: the announced range is the
    variable's last identifier, one of the reference edits *)
Theorem f_prepare_rename_variable f m idx v d i n fm :
  folder_ok f -> nth_error (f_mods f) m = Some fm ->
  decl_ident_span_at (fm_nodes fm) idx = None -> qual_at (fm_quals fm) idx = None ->
  In v (fm_uses fm) -> on_ident v idx = true ->
  (forall x, In x (fm_nodes fm) -> n_decl x = true -> ~ (n_istart x <= idx < n_iend x)) ->
  u_def (v_use v) = Some d -> internal f d = false -> locate f d = Some (i, n) ->
  f_prepare f m idx = Some (u_istart (v_use v), u_iend (v_use v)) /\
  In (m, u_istart (v_use v), u_iend (v_use v)) (f_rename f m idx).
Proof.
  intros Hok Hn Hnd Hnq Hin Hon Hno Hd Hi Hl.
  pose proof (mod_at_nth_error f m fm Hn) as Hm.
  split.
  - unfold f_prepare. rewrite Hm, Hnd, Hnq, (var_ident_at_inside fm (mod_ok_nth f m fm Hok Hn) v idx Hin Hon). reflexivity.
  - assert (Hfd : f_find_definition f m idx = Some d).
    { rewrite <- Hd. apply (f_find_definition_on_variable f m idx v Hok); try rewrite Hm; assumption. }
    rewrite (f_rename_external f m idx d i n Hfd Hi Hl). right. apply f_refs_exact.
    exists fm, (v_use v). repeat split; try assumption. unfold uses_of. apply in_map. exact Hin.
Qed.

(** a concrete folder of two modules: a qualified use in the first module bound to a
    declaration of the second; it satisfies [folder_ok] and the answers are computed *)
Definition ex_folder : folder :=
  mk_folder
    [ mk_fmod [ mk_vuse (mk_use 40 46 42 46 (Some 7)) (Some (40, 41, 3)); mk_vuse (mk_use 50 56 50 56 (Some 99)) None ]
              [ mk_dnode 5 20 60 24 25 true ] [ mk_qdef 15 16 3 ];
      mk_fmod [ mk_vuse (mk_use 30 34 30 34 (Some 7)) None ] [ mk_dnode 7 0 15 4 8 true; mk_dnode 8 10 11 10 11 false ] [] ]
    [99].
Example ex_folder_ok : folder_ok ex_folder.
Proof. repeat constructor; cbn; lia. Qed.
Example ex_folder_answers :
  f_goto ex_folder 0 43 = Some (1%nat, 0, 15) /\ f_goto ex_folder 0 52 = None /\
  f_references ex_folder 1 5 = [(0%nat, 42, 46); (1%nat, 30, 34)] /\
  f_rename ex_folder 0 44 = [(1%nat, 4, 8); (0%nat, 42, 46); (1%nat, 30, 34)] /\
  f_rename ex_folder 0 15 = [(0%nat, 15, 16); (0%nat, 40, 41)] /\ f_rename ex_folder 0 52 = [] /\
  f_prepare ex_folder 0 40 = Some (42, 46) /\ f_prepare ex_folder 0 15 = Some (15, 16) /\ f_prepare ex_folder 1 5 = Some (4, 8) /\
  f_prepare ex_folder 1 10 = None.
Proof. vm_compute. repeat split. Qed.
