(** The ranks [Strat.stratified] computes by relaxation are a witness whenever one exists: if no
    cycle of uses runs through declarations that are not cut (every cycle passes through a
    declaration the evaluator memoises, which is what the recursion check establishes:
    CyclesProofs.flagged_cut_every_cycle), the relaxation is stable after as many rounds as
    there are declarations and the stable table satisfies the rank condition of
    [Strat.strat_okb]. With first-order bodies this is exactly [stratified]. *)
From Oal Require Import ListFacts Eval EvalIO Strat InlineProofs TermProofs.
From Coq Require Import Lia Arith.
Local Open Scope nat_scope.

Lemma fold_app_map {A B} (f : A -> B) l : forall acc (i : N),
  fst (fold_left (fun '(acc, i) x => (acc ++ [f x], N.succ i)) l (acc, i)) = acc ++ map f l.
Proof.
  induction l as [|x l IH]; intros acc i; cbn [fold_left map]; [rewrite app_nil_r; reflexivity|].
  rewrite IH, <- app_assoc. reflexivity.
Qed.

Section Rank.
  Variable P : prog.

  Definition step_decl (r : N -> N -> nat) (d : decl) : nat := if cutd d then 0 else erank P r (d_rhs d).

  Lemma relax_map rk : relax P rk = map (map (step_decl (rank_of rk))) P.
  Proof. unfold relax, step_decl. rewrite fold_app_map. cbn [app]. apply map_ext. intros ds. rewrite fold_app_map. reflexivity. Qed.

  Definition relaxf (r : N -> N -> nat) (m i : N) : nat :=
    match get_decl P m i with Some d => step_decl r d | None => 0 end.

  Lemma rank_of_map (f : decl -> nat) m i :
    rank_of (map (map f) P) m i = match get_decl P m i with Some d => f d | None => 0 end.
  Proof.
    unfold rank_of, get_decl. rewrite nth_error_map. destruct (nth_error P (N.to_nat m)) as [ds|]; cbn [option_map]; [|reflexivity].
    generalize (N.to_nat i). induction ds as [|d ds IH]; intros [|n]; cbn [map nth nth_error]; auto.
  Qed.

  Lemma iter_S {A} (f : A -> A) n : forall x, iter (S n) f x = f (iter n f x).
  Proof. induction n as [|n IH]; intros x; [reflexivity|]. cbn [iter] in *. rewrite <- IH. reflexivity. Qed.

  Definition rf (k : nat) : N -> N -> nat := rank_of (iter k (relax P) (map (map (fun _ => 0)) P)).

  Lemma rf_0 m i : rf 0 m i = 0.
  Proof. unfold rf. cbn [iter]. rewrite rank_of_map. destruct (get_decl P m i); reflexivity. Qed.

  Lemma rf_S k m i : rf (S k) m i = relaxf (rf k) m i.
  Proof. unfold rf. rewrite iter_S, relax_map. apply rank_of_map. Qed.

  (** the rank of an expression is the best score of a declaration it mentions *)
  Definition score (r : N -> N -> nat) (m i : N) : nat := if cutb P m i then 0 else S (r m i).
  Definition best (r : N -> N -> nat) (l : list (N * N)) : nat :=
    fold_right (fun p acc => Nat.max (score r (fst p) (snd p)) acc) 0 l.

  Lemma best_app r l1 l2 : best r (l1 ++ l2) = Nat.max (best r l1) (best r l2).
  Proof. induction l1 as [|x l1 IH]; cbn [app best fold_right]; [reflexivity|]. fold (best r (l1 ++ l2)). rewrite IH. apply Nat.max_assoc. Qed.

  Definition occP (m i : N) (e : expr) : Prop := occ m i e = true.

  Lemma occ_occs m i : forall e, occ m i e = existsb (fun p => N.eqb (fst p) m && N.eqb (snd p) i) (occs e).
  Proof.
    fix IH 1. intros e.
    assert (IHl : forall l, existsb (occ m i) l = existsb (fun p => N.eqb (fst p) m && N.eqb (snd p) i) (flat_map occs l)).
    { induction l as [|x l IHl]; [reflexivity|]. cbn [existsb flat_map]. rewrite existsb_app, (IH x), IHl. reflexivity. }
    assert (IHo : forall o, match o with Some b => occ m i b | None => false end =
                            existsb (fun p => N.eqb (fst p) m && N.eqb (snd p) i) match o with Some b => occs b | None => [] end).
    { intros [b|]; [apply IH|reflexivity]. }
    destruct e; cbn [occ occs]; try reflexivity; try apply IH; try apply IHl.
    - symmetry. apply orb_false_r.
    - rewrite existsb_app. f_equal; [apply IH|apply IHl].
    - rewrite existsb_app. f_equal; [apply IHo|].
      induction metas as [|[k x] l IHm]; [reflexivity|]. cbn [existsb flat_map snd]. rewrite existsb_app. f_equal; [apply IH|exact IHm].
    - rewrite !existsb_app, <- orb_assoc. f_equal; [apply IHo|f_equal; [apply IH|apply IHo]].
    - rewrite existsb_app. f_equal; [|apply IHo].
      induction segs as [|[x|x] l IHs]; [reflexivity|exact IHs|]. cbn [existsb flat_map]. rewrite existsb_app. f_equal; [apply IH|exact IHs].
    - rewrite existsb_app. f_equal; [apply IH|apply IHl].
  Qed.

  Lemma occs_occ m i e : occP m i e <-> In (m, i) (occs e).
  Proof.
    unfold occP. rewrite occ_occs, existsb_exists. split.
    - intros ([m' i'] & Hin & E). apply andb_prop in E as [E1 E2]. apply N.eqb_eq in E1, E2. cbn [fst snd] in *. subst. exact Hin.
    - intros Hin. exists (m, i). cbn [fst snd]. rewrite !N.eqb_refl. auto.
  Qed.

  Lemma erank_occs r : forall e, erank P r e = best r (occs e).
  Proof.
    fix IH 1. intros e.
    assert (IHl : forall l, fold_right (fun x acc => Nat.max (erank P r x) acc) 0 l = best r (flat_map occs l)).
    { induction l as [|x l IHl]; [reflexivity|]. cbn [fold_right flat_map]. rewrite best_app, (IH x), IHl. reflexivity. }
    assert (IHo : forall o, match o with Some b => erank P r b | None => 0 end = best r match o with Some b => occs b | None => [] end).
    { intros [b|]; [apply IH|reflexivity]. }
    destruct e; cbn [erank occs]; try reflexivity; try apply IH; try apply IHl.
    - symmetry. apply Nat.max_0_r.
    - rewrite best_app. f_equal; [apply IH|apply IHl].
    - rewrite best_app. f_equal; [apply IHo|].
      induction metas as [|[k x] l IHm]; [reflexivity|]. cbn [fold_right flat_map snd]. rewrite best_app. f_equal; [apply IH|exact IHm].
    - rewrite !best_app. f_equal; [apply IHo|f_equal; [apply IH|apply IHo]].
    - rewrite best_app. f_equal; [|apply IHo].
      induction segs as [|[x|x] l IHs]; [reflexivity|exact IHs|]. cbn [fold_right flat_map]. rewrite best_app. f_equal; [apply IH|exact IHs].
    - rewrite best_app. f_equal; [apply IH|apply IHl].
  Qed.

  Lemma erank_lower r m i e : occP m i e -> score r m i <= erank P r e.
  Proof. intros Ho. rewrite erank_occs. apply (max_in (fun p => score r (fst p) (snd p)) _ (m, i)), occs_occ, Ho. Qed.

  Lemma erank_witness r e :
    erank P r e = 0 \/ exists m i, occP m i e /\ cutb P m i = false /\ erank P r e = S (r m i).
  Proof.
    rewrite erank_occs. unfold best.
    destruct (fold_max_witness (fun p => score r (fst p) (snd p)) (occs e)) as [E|([m i] & Hin & E)]; [left; exact E|].
    rewrite E. unfold score. cbn [fst snd]. destruct (cutb P m i) eqn:Ec; [left; reflexivity|].
    right. exists m, i. split; [apply occs_occ, Hin|auto].
  Qed.

  (** uses among declarations that are not cut *)
  Definition pos := (N * N)%type.
  Definition edge (x y : pos) : Prop :=
    match get_decl P (fst x) (snd x) with
    | Some d => cutd d = false /\ occP (fst y) (snd y) (d_rhs d) /\ cutb P (fst y) (snd y) = false
    | None => False
    end.
  Fixpoint chain (x : pos) (l : list pos) : Prop :=
    match l with [] => True | y :: l' => edge x y /\ chain y l' end.

  Lemma edge_inv x y : edge x y ->
    exists d, get_decl P (fst x) (snd x) = Some d /\ cutd d = false /\ occP (fst y) (snd y) (d_rhs d) /\ cutb P (fst y) (snd y) = false.
  Proof. unfold edge. destruct (get_decl P (fst x) (snd x)) as [d|]; [eauto|intros []]. Qed.

  Lemma edge_uncut x y : edge x y -> cutb P (fst y) (snd y) = false.
  Proof. intros H. destruct (edge_inv x y H) as (d & _ & _ & _ & Hy). exact Hy. Qed.

  Lemma relaxf_lower r x y : edge x y -> S (r (fst y) (snd y)) <= relaxf r (fst x) (snd x).
  Proof.
    intros H. destruct (edge_inv x y H) as (d & Hd & Hc & Ho & Hy). unfold relaxf, step_decl. rewrite Hd, Hc.
    pose proof (erank_lower r _ _ _ Ho) as Hu. unfold score in Hu. rewrite Hy in Hu. exact Hu.
  Qed.

  Lemma relaxf_witness r m i : relaxf r m i = 0 \/ exists y, edge (m, i) y /\ relaxf r m i = S (r (fst y) (snd y)).
  Proof.
    unfold relaxf, step_decl, edge. cbn [fst snd]. destruct (get_decl P m i) as [d|]; [|left; reflexivity].
    destruct (cutd d); [left; reflexivity|].
    destruct (erank_witness r (d_rhs d)) as [->|(m' & i' & Ho & Hc & ->)]; [left; reflexivity|]. right. exists (m', i'). auto.
  Qed.

  (** [rf k m i] is the length of the longest chain of uses from [(m, i)], capped at [k] *)
  Lemma rf_chain : forall k m i, exists l, length l = rf k m i /\ chain (m, i) l.
  Proof.
    induction k as [|k IH]; intros m i; [exists []; rewrite rf_0; split; [reflexivity|exact I]|]. rewrite rf_S.
    destruct (relaxf_witness (rf k) m i) as [->|([m' i'] & He & ->)]; [exists []; split; [reflexivity|exact I]|].
    destruct (IH m' i') as (l & Hl & Hc). exists ((m', i') :: l). cbn [length chain fst snd]. rewrite Hl. auto.
  Qed.

  Lemma chain_rf : forall l k x, chain x l -> length l <= k -> length l <= rf k (fst x) (snd x).
  Proof.
    induction l as [|y l IH]; intros k x Hc Hk; [apply Nat.le_0_l|]. destruct Hc as [He Hc].
    destruct k as [|k]; [inversion Hk|]. rewrite rf_S. cbn [length] in *.
    pose proof (relaxf_lower (rf k) x y He). specialize (IH k y Hc). lia.
  Qed.

  (** a cycle of uses that avoids the cut declarations *)
  Definition cyclic : Prop := exists y l, chain y (l ++ [y]).

  Lemma chain_app x l1 y l2 : chain x (l1 ++ y :: l2) -> chain x (l1 ++ [y]) /\ chain y l2.
  Proof.
    revert x. induction l1 as [|z l1 IH]; intros x H; cbn [app chain] in *.
    - destruct H as [He Hc]. auto.
    - destruct H as [He Hc]. destruct (IH z Hc) as [A B]. auto.
  Qed.

  Lemma pos_dec (a b : pos) : {a = b} + {a <> b}.
  Proof. decide equality; apply N.eq_dec. Qed.

  Lemma dup_split (l : list pos) : NoDup l \/ exists y l1 l2 l3, l = l1 ++ y :: l2 ++ y :: l3.
  Proof.
    induction l as [|a l IH]; [left; constructor|].
    destruct IH as [IH|(y & l1 & l2 & l3 & ->)].
    - destruct (in_dec pos_dec a l) as [Hin|Hnin]; [|left; constructor; assumption].
      right. apply in_split in Hin as (l2 & l3 & ->). exists a, [], l2, l3. reflexivity.
    - right. exists y, (a :: l1), l2, l3. reflexivity.
  Qed.

  Definition positions : list pos :=
    flat_map (fun mds : N * list decl => map (fun idd : N * decl => (fst mds, fst idd)) (enum (snd mds))) (enum P).

  Lemma enum_length {A} (l : list A) : length (enum l) = length l.
  Proof. unfold enum. rewrite combine_length, map_length, seq_length. lia. Qed.

  Lemma positions_length : length positions = ndecls P.
  Proof.
    unfold positions, ndecls.
    assert (G : forall l : list (N * list decl),
              length (flat_map (fun mds : N * list decl => map (fun idd : N * decl => (fst mds, fst idd)) (enum (snd mds))) l) =
              fold_right (fun ds acc => length ds + acc) 0 (map snd l)).
    { induction l as [|[m ds] l IH]; [reflexivity|]. cbn [flat_map map snd fold_right]. rewrite app_length, map_length, enum_length, IH. reflexivity. }
    rewrite G. unfold enum. rewrite map_snd_combine; [reflexivity|]. rewrite map_length, seq_length. reflexivity.
  Qed.

  Lemma valid_position m i d : get_decl P m i = Some d -> In (m, i) positions.
  Proof.
    intros H. destruct (get_decl_enum P m i d H) as (ds & Hm & Hi).
    apply in_flat_map. exists (m, ds). split; [exact Hm|]. apply in_map_iff. exists (i, d). auto.
  Qed.

  Lemma edge_in_use_edges x y : edge x y -> In (x, y) (use_edges P).
  Proof.
    intros H. destruct (edge_inv x y H) as (d & Hd & _ & Ho & _). destruct x as [m i], y as [m' i']. cbn [fst snd] in *.
    destruct (get_decl_enum P m i d Hd) as (ds & Hm & Hi).
    apply in_flat_map. exists (m, ds). split; [exact Hm|]. apply in_flat_map. exists (i, d). split; [exact Hi|].
    apply in_map_iff. exists (m', i'). split; [reflexivity|apply occs_occ, Ho].
  Qed.

  Lemma noncut_valid m i : cutb P m i = false -> exists d, get_decl P m i = Some d.
  Proof. unfold cutb. destruct (get_decl P m i) as [d|]; [eauto|discriminate]. Qed.

  Lemma chain_positions : forall l x, chain x l -> incl l positions.
  Proof.
    induction l as [|[m i] l IH]; intros x Hc y Hy; [destruct Hy|]. destruct Hc as [He Hc].
    destruct Hy as [<-|Hy]; [|exact (IH _ Hc y Hy)].
    destruct (noncut_valid m i (edge_uncut x (m, i) He)) as [d Hd]. exact (valid_position m i d Hd).
  Qed.

  Lemma long_chain_cyclic x l : chain x l -> ndecls P < length l -> cyclic.
  Proof.
    intros Hc Hlen. destruct (dup_split l) as [Hnd|(y & l1 & l2 & l3 & ->)].
    - pose proof (NoDup_incl_length Hnd (chain_positions l x Hc)) as H. rewrite positions_length in H. lia.
    - apply chain_app in Hc as [_ Hc]. apply chain_app in Hc as [Hc _]. exists y, l2. exact Hc.
  Qed.

  (** without such a cycle no chain has more steps than there are declarations, so further rounds change nothing *)
  Hypothesis Hacyclic : ~ cyclic.

  Lemma rf_settled k k' m i : ndecls P <= k' -> rf k m i <= rf k' m i.
  Proof.
    intros Hk. destruct (rf_chain k m i) as (l & Hl & Hc). rewrite <- Hl.
    apply (chain_rf l k' (m, i) Hc). destruct (le_lt_dec (length l) (ndecls P)) as [Hle|Hlt]; [lia|].
    destruct Hacyclic. exact (long_chain_cyclic (m, i) l Hc Hlt).
  Qed.

  (** the rank condition of [strat_okb] for every declaration *)
  Theorem ranks_valid m i d : get_decl P m i = Some d -> cutd d = false ->
    erank P (rank_of (ranks P)) (d_rhs d) <= rank_of (ranks P) m i.
  Proof.
    intros Hd Hc. change (rank_of (ranks P)) with (rf (S (ndecls P))).
    apply Nat.le_trans with (rf (S (S (ndecls P))) m i); [|apply rf_settled; lia].
    rewrite rf_S. unfold relaxf, step_decl. rewrite Hd, Hc. apply le_n.
  Qed.

  Lemma rank_le_max rk m i : rank_of rk m i <= max_rank rk.
  Proof.
    unfold rank_of, max_rank. destruct (nth_error rk (N.to_nat m)) as [l|] eqn:E; [|lia].
    apply nth_error_In in E. pose proof (max_in (fun l : list nat => fold_right Nat.max 0 l) rk l E). pose proof (nth_le_max (N.to_nat i) l). lia.
  Qed.

  Lemma erank_le_R rk e : erank P (rank_of rk) e <= S (max_rank rk).
  Proof.
    destruct (erank_witness (rank_of rk) e) as [->|(m & i & _ & _ & ->)]; [lia|]. pose proof (rank_le_max rk m i). lia.
  Qed.

  Lemma decl_size_le rk rs m i d : get_decl P m i = Some d -> size (d_rhs d) <= max_size P rk rs.
  Proof.
    unfold get_decl, max_size. intros H. destruct (nth_error P (N.to_nat m)) as [ds|] eqn:Em; [|discriminate].
    apply nth_error_In in Em, H.
    pose proof (max_in (fun ds : list decl => fold_right (fun d acc' => Nat.max (size (d_rhs d)) acc') 0 ds) P ds Em) as H1.
    pose proof (max_in (fun d : decl => size (d_rhs d)) ds d H) as H2. cbn beta in H1. lia.
  Qed.

  Lemma res_size_le rk rs r : In r rs -> size r <= max_size P rk rs.
  Proof. unfold max_size. intros H. pose proof (max_in size rs r H). lia. Qed.

  Theorem acyclic_first_order_stratified rs :
    (forall m i d, get_decl P m i = Some d -> fo P (d_rhs d) = true) -> (forall r, In r rs -> fo P r = true) ->
    stratified P rs = true.
  Proof.
    intros Hfd Hfr. unfold stratified, strat_okb. apply andb_true_intro. split.
    - apply all_decls_intro. intros m i d Hd. unfold decl_sokb, expr_okb. rewrite (Hfd m i d Hd).
      rewrite (proj2 (Nat.leb_le _ _) (decl_size_le _ _ m i d Hd)), (proj2 (Nat.leb_le _ _) (erank_le_R _ _)). cbn [andb].
      destruct (cutd d) eqn:Ec; [reflexivity|]. cbn [orb]. apply Nat.leb_le. apply ranks_valid; assumption.
    - apply forallb_forall. intros r Hr. unfold expr_okb. rewrite (Hfr r Hr).
      rewrite (proj2 (Nat.leb_le _ _) (res_size_le _ _ r Hr)), (proj2 (Nat.leb_le _ _) (erank_le_R _ _)). reflexivity.
  Qed.
End Rank.

Lemma edge_rank P rk R Z rs x y : strat_okb P rk R Z rs = true -> edge P x y ->
  rank_of rk (fst y) (snd y) < rank_of rk (fst x) (snd x).
Proof.
  intros H He. destruct (edge_inv P x y He) as (d & Ed & Hc & Ho & Hy). unfold strat_okb in H. apply andb_prop in H as [H _].
  pose proof (all_decls_get P _ _ _ d H Ed) as Hd. cbn beta in Hd.
  unfold decl_sokb in Hd. apply andb_prop in Hd as [_ Hd]. rewrite Hc in Hd. cbn [orb] in Hd. apply Nat.leb_le in Hd.
  pose proof (erank_lower P (rank_of rk) (fst y) (snd y) (d_rhs d) Ho) as Hu.
  unfold score in Hu. rewrite Hy in Hu. lia.
Qed.

Lemma chain_rank P rk R Z rs : strat_okb P rk R Z rs = true ->
  forall l x y, chain P x (l ++ [y]) -> rank_of rk (fst y) (snd y) < rank_of rk (fst x) (snd x).
Proof.
  intros H. induction l as [|z l IH]; intros x y Hc; cbn [app chain] in Hc.
  - destruct Hc as [He _]. eapply edge_rank; eassumption.
  - destruct Hc as [He Hc]. pose proof (edge_rank P rk R Z rs x z H He). specialize (IH z y Hc). lia.
Qed.

Theorem stratified_acyclic P rk R Z rs : strat_okb P rk R Z rs = true -> ~ cyclic P.
Proof. intros H (y & l & Hc). pose proof (chain_rank P rk R Z rs H l y y Hc). lia. Qed.

(** [stratified] is: first-order bodies and no cycle of uses that avoids the cut declarations *)
Theorem stratified_iff P rs :
  stratified P rs = true <->
  ~ cyclic P /\ (forall m i d, get_decl P m i = Some d -> fo P (d_rhs d) = true) /\ (forall r, In r rs -> fo P r = true).
Proof.
  split.
  - intros H. split; [eapply stratified_acyclic; exact H|]. unfold stratified, strat_okb in H. apply andb_prop in H as [Hd Hr]. split.
    + intros m i d Hg. apply (all_decls_get P _ m i d Hd) in Hg. unfold decl_sokb, expr_okb in Hg.
      apply andb_prop in Hg as [Hg _]. apply andb_prop in Hg as [_ Hg]. exact Hg.
    + intros r Hin. rewrite forallb_forall in Hr. specialize (Hr r Hin). unfold expr_okb in Hr. apply andb_prop in Hr as [_ Hr]. exact Hr.
  - intros (Ha & Hd & Hr). apply acyclic_first_order_stratified; assumption.
Qed.
