(** The document built on a base description (Model/BuilderBase.v): without a base it is the
    document of Model/Builder.v; with any base, every "$ref" inside the generated parts (the
    member "paths" and the member "schemas" of "components") resolves to a key of the
    document's own components.schemas, which are exactly the generated components; and the
    base is otherwise carried over: every top-level member other than "paths" and "components",
    and every member of "components" other than "schemas", unchanged and in order. *)
From Oal Require Import Eval Builder BuilderBase ClosureProofs AssocFacts BuilderProofs RefClosure.
Local Open Scope N_scope.

Lemma teq_refl k : teq k k = true.
Proof. unfold teq. destruct (list_eq_dec N.eq_dec k k); [reflexivity|contradiction]. Qed.
Lemma teq_true a b : teq a b = true -> a = b.
Proof. unfold teq. destruct (list_eq_dec N.eq_dec a b); [intros _; assumption|discriminate]. Qed.
Lemma teq_false a b : a <> b -> teq a b = false.
Proof. unfold teq. destruct (list_eq_dec N.eq_dec a b); [contradiction|reflexivity]. Qed.

Lemma get_insert_after_new k0 k v m : get k m = None -> get k (insert_after k0 (k, v) m) = Some v.
Proof.
  induction m as [|[k1 v1] m IH]; cbn [insert_after]; intros H; [apply get_cons_same|].
  cbn [get] in H. destruct (list_eq_dec N.eq_dec k k1) as [E|E]; [discriminate H|].
  destruct (teq k0 k1); rewrite (get_cons_other k k1) by exact E; [apply get_cons_same|apply IH, H].
Qed.

Lemma get_insert_after_other k0 k k' v m : k <> k' -> get k (insert_after k0 (k', v) m) = get k m.
Proof.
  intros Hne. induction m as [|[k1 v1] m IH]; cbn [insert_after]; [apply get_cons_other, Hne|].
  destruct (teq k0 k1); cbn [get]; destruct (list_eq_dec N.eq_dec k k1); try reflexivity; [apply get_cons_other, Hne|exact IH].
Qed.

Lemma remove_put k v m : remove_key k (put k v m) = remove_key k m.
Proof.
  induction m as [|[k0 v0] m IH]; cbn [put remove_key].
  - rewrite teq_refl. reflexivity.
  - destruct (list_eq_dec N.eq_dec k k0) as [E|E]; cbn [remove_key].
    + subst k0. rewrite teq_refl. reflexivity.
    + rewrite (teq_false k k0 E). rewrite IH. reflexivity.
Qed.

Lemma remove_insert_after k0 k v m : remove_key k (insert_after k0 (k, v) m) = remove_key k m.
Proof.
  induction m as [|[k1 v1] m IH]; cbn [insert_after remove_key].
  - rewrite teq_refl. reflexivity.
  - destruct (teq k0 k1); cbn [remove_key]; destruct (teq k k1); try rewrite teq_refl; try reflexivity; rewrite IH; reflexivity.
Qed.

Lemma remove_remove k k' m : remove_key k (remove_key k' m) = remove_key k' (remove_key k m).
Proof.
  induction m as [|[k1 v1] m IH]; [reflexivity|]. cbn [remove_key].
  destruct (teq k' k1) eqn:E1; destruct (teq k k1) eqn:E2; cbn [remove_key]; rewrite ?E1, ?E2; try exact IH. rewrite IH. reflexivity.
Qed.

Lemma remove_idem k m : remove_key k (remove_key k m) = remove_key k m.
Proof. induction m as [|[k0 v] m IH]; [reflexivity|]. cbn [remove_key]. destruct (teq k k0) eqn:E; [exact IH|]. cbn [remove_key]. rewrite E, IH. reflexivity. Qed.

Lemma get_remove_same k m : get k (remove_key k m) = None.
Proof.
  induction m as [|[k0 v] m IH]; [reflexivity|]. cbn [remove_key]. destruct (teq k k0) eqn:E; [exact IH|].
  cbn [get]. destruct (list_eq_dec N.eq_dec k k0) as [->|_]; [rewrite teq_refl in E; discriminate E|exact IH].
Qed.

(** [with_base] puts the merged components in place, or right after the paths when the base has none *)
Lemma with_base_shape base ps cs : exists cm,
  with_base base ps cs = put T_components (JObj (merge_components cs cm)) (put T_paths ps base) \/
  get T_components (put T_paths ps base) = None /\
  with_base base ps cs = insert_after T_paths (T_components, JObj (merge_components cs cm)) (put T_paths ps base).
Proof. unfold with_base. destruct (get T_components (put T_paths ps base)) as [[| | | | | |cm]|]; eauto. Qed.

Theorem base_members_kept base ps cs :
  remove_key T_paths (remove_key T_components (with_base base ps cs)) = remove_key T_paths (remove_key T_components base).
Proof.
  destruct (with_base_shape base ps cs) as (cm & [->|[_ ->]]); rewrite ?remove_put, ?remove_insert_after;
    rewrite (remove_remove T_paths T_components), remove_put; apply remove_remove.
Qed.

Theorem base_components_kept base ps cs cm :
  get T_components base = Some (JObj cm) ->
  exists cm', get T_components (with_base base ps cs) = Some (JObj cm') /\ remove_key T_schemas cm' = remove_key T_schemas cm.
Proof.
  intros H. unfold with_base. rewrite (get_put_other T_components T_paths), H by discriminate.
  exists (merge_components cs cm). split; [apply get_put_same|].
  unfold merge_components. destruct cs; [apply remove_idem|]. cbn [remove_key]. rewrite teq_refl. apply remove_idem.
Qed.

Lemma get_schemas_merge cs cm :
  get T_schemas (merge_components cs cm) = match cs with [] => None | _ => Some (JObj cs) end.
Proof.
  unfold merge_components. destruct cs as [|c cs']; [apply get_remove_same|].
  cbn [get]. destruct (list_eq_dec N.eq_dec T_schemas T_schemas); [reflexivity|contradiction].
Qed.

Lemma with_base_components base ps cs :
  exists cm, get T_components (with_base base ps cs) = Some (JObj (merge_components cs cm)).
Proof.
  destruct (with_base_shape base ps cs) as (cm & [->|[Eg ->]]); exists cm; [apply get_put_same|apply get_insert_after_new, Eg].
Qed.

Theorem base_schemas_replaced base ps cs :
  schema_names (JObj (with_base base ps cs)) = map fst cs.
Proof.
  unfold schema_names. destruct (with_base_components base ps cs) as [cm ->]. rewrite get_schemas_merge. destruct cs; reflexivity.
Qed.

Lemma with_base_paths base ps cs : get T_paths (with_base base ps cs) = Some ps.
Proof.
  destruct (with_base_shape base ps cs) as (cm & [->|[_ ->]]);
    [rewrite get_put_other by discriminate|rewrite get_insert_after_other by discriminate]; apply get_put_same.
Qed.

Section Closure.
  Variable strs : N -> text.
  Variable table : list (rkey * schema).
  Variable names : list text.

  Theorem document_default_base rels :
    document_with_base strs table names default_base rels = document strs table names rels.
  Proof.
    unfold document_with_base, document. destruct (paths_json strs table names rels) as [ps|]; [|reflexivity].
    destruct (components strs table names table 0 []) as [[|c cs]|]; reflexivity.
  Qed.

  (** the generated parts of a document: the member "paths" and the schema components *)
  Definition generated_parts (doc : json) : list json :=
    match doc with
    | JObj m =>
        (match get T_paths m with Some p => [p] | None => [] end) ++
        (match get T_components m with
         | Some (JObj c) => match get T_schemas c with Some s => [s] | None => [] end
         | _ => []
         end)
    | _ => []
    end.

  Theorem document_with_base_refs_resolve base rels doc :
    document_with_base strs table names base rels = Some doc ->
    forall part t, In part (generated_parts doc) -> jref_in t part -> resolves doc t.
  Proof.
    unfold document_with_base. intros H. apply obind_Some in H as (ps & Ep & H). apply obind_Some in H as (cs & Ec & [= <-]).
    intros part t Hpart Hin.
    assert (HR : allowed_ref strs table names t).
    { unfold generated_parts in Hpart. rewrite with_base_paths in Hpart. cbn [app] in Hpart. destruct Hpart as [<-|Hpart].
      - exact (paths_clean strs table names rels ps Ep t Hin).
      - destruct (with_base_components base ps cs) as [cm Hc]. rewrite Hc, get_schemas_merge in Hpart.
        pose proof (components_obj_clean strs table names cs Ec) as Hcs.
        destruct cs; [destruct Hpart|]. destruct Hpart as [<-|[]]. exact (Hcs t Hin). }
    destruct (allowed_ref_emitted strs table names t cs HR Ec) as (n & -> & Hn). exists n. split; [reflexivity|].
    rewrite base_schemas_replaced. exact Hn.
  Qed.
End Closure.

(** evaluation, then the builder on any base: a document, closed in its generated parts *)
Theorem evaluated_document_with_base_closed strs names P n rs rels table base :
  eval_program false P n rs = Ok (rels, table) ->
  exists doc, document_with_base strs table names base rels = Some doc /\
              forall part t, In part (generated_parts doc) -> jref_in t part -> resolves doc t.
Proof.
  intros H. destruct (builder_never_panics strs names P n rs rels table H) as [j Hj].
  unfold document in Hj. apply obind_Some in Hj as (ps & Ep & Hj). apply obind_Some in Hj as (cs & Ec & _).
  assert (Hd : document_with_base strs table names base rels = Some (JObj (with_base base ps cs)))
    by (unfold document_with_base; rewrite Ep, Ec; reflexivity).
  eexists. split; [exact Hd|].
  exact (document_with_base_refs_resolve strs table names base rels _ Hd).
Qed.
