(** Reference closure of the evaluator model: in the [Spec] of a successful evaluation every
    reference [SRef k] -- in the relations and in the schemas of the reference table -- names
    a key of the reference table. (On the way: no entry of the context is pending when the
    program ends, so the table has every key of the context.) This is the evaluator's half of
    "every $ref resolves". The theorems are about the code's semantics ([eval false], the
    whole-stack lookup). *)
From Oal Require Import Eval ListFacts.
From Oal Require Export EvalBasics.
Local Open Scope N_scope.

(** the keys a value mentions *)
Fixpoint ks_schema (s : schema) : list rkey :=
  match s with Schema e _ _ _ _ => ks_sexpr e end
with ks_sexpr (e : sexpr) : list rkey :=
  match e with
  | SRel r => ks_relation r
  | SUri u => ks_uri u
  | SArr i => ks_schema i
  | SObj ps => flat_map ks_property ps
  | SOp _ ss => flat_map ks_schema ss
  | SRef k => [k]
  | _ => []
  end
with ks_property (p : property) : list rkey :=
  match p with Prop_ _ s _ _ => ks_schema s end
with ks_uri (u : uri) : list rkey :=
  match u with
  | Uri path prm _ => flat_map ks_useg path ++ match prm with Some ps => flat_map ks_property ps | None => [] end
  end
with ks_useg (u : useg) : list rkey :=
  match u with ULit _ => [] | UVar p => ks_property p end
with ks_relation (r : relation) : list rkey :=
  match r with
  | Rel u xs => ks_uri u ++ flat_map (fun o => match o with Some t => ks_transfer t | None => [] end) xs
  end
with ks_transfer (t : transfer) : list rkey :=
  match t with
  | Xfer _ dom rg prm _ _ _ _ =>
      ks_content dom ++ flat_map (fun kc => match kc with (_, c) => ks_content c end) rg ++
      match prm with Some ps => flat_map ks_property ps | None => [] end
  end
with ks_content (c : content) : list rkey :=
  match c with
  | Content s _ _ hd _ _ =>
      match s with Some s' => ks_schema s' | None => [] end ++
      match hd with Some ps => flat_map ks_property ps | None => [] end
  end.

Definition ks_props (ps : list property) : list rkey := flat_map ks_property ps.
Definition ks_oprops (o : option (list property)) : list rkey := match o with Some ps => ks_props ps | None => [] end.
Definition ks_ranges (r : ranges) : list rkey := flat_map (fun kc : rgkey * content => ks_content (snd kc)) r.
Definition ks_xfers (xs : list (option transfer)) : list rkey :=
  flat_map (fun o => match o with Some t => ks_transfer t | None => [] end) xs.

Fixpoint ks_value (v : value) : list rkey :=
  match v with
  | VUri u => ks_uri u
  | VRel r => ks_relation r
  | VXfer t => ks_transfer t
  | VCont c => ks_content c
  | VObj ps => ks_props ps
  | VRanges r => ks_ranges r
  | VProp p => ks_property p
  | VPrim e => ks_sexpr e
  | VOp _ ss => flat_map ks_schema ss
  | VRef k v' _ => k :: ks_value v'
  | VArr i => ks_schema i
  | VRecur k => [k]
  | _ => []
  end.

Definition sub (l : list rkey) (D : rkey -> Prop) : Prop := forall k, In k l -> D k.

Lemma sub_app l1 l2 D : sub (l1 ++ l2) D <-> sub l1 D /\ sub l2 D.
Proof.
  unfold sub. split.
  - intros H. split; intros k Hk; apply H, in_or_app; auto.
  - intros [H1 H2] k Hk. apply in_app_or in Hk as [Hk|Hk]; auto.
Qed.

Lemma sub_nil D : sub [] D.
Proof. intros k []. Qed.

Lemma sub_flat_map {A} (f : A -> list rkey) l D : sub (flat_map f l) D <-> Forall (fun a => sub (f a) D) l.
Proof.
  induction l as [|a l IH]; cbn [flat_map].
  - split; [constructor|intros _; apply sub_nil].
  - rewrite sub_app, IH, Forall_cons_iff. reflexivity.
Qed.

Lemma sub_mono l (D D' : rkey -> Prop) : (forall k, D k -> D' k) -> sub l D -> sub l D'.
Proof. intros H Hs k Hk. apply H, Hs, Hk. Qed.

Lemma ks_transfer_eq ms dom rg prm d s tg i :
  ks_transfer (Xfer ms dom rg prm d s tg i) = ks_content dom ++ ks_ranges rg ++ ks_oprops prm.
Proof.
  cbn [ks_transfer]. f_equal. f_equal. unfold ks_ranges. apply flat_map_ext. intros [k c]. reflexivity.
Qed.

(** casts do not invent keys *)
Lemma cast_schema_ks va sc D : cast_schema va = Ok sc -> sub (ks_value (fst va)) D -> sub (ks_schema sc) D.
Proof.
  destruct va as [v a]. cbn [fst]. intros H Hs. destruct v; cbn [cast_schema] in H; try discriminate H; injection H as <-; cbn [ks_schema ks_sexpr ks_value] in *; try exact Hs.
  intros k' [<-|[]]. apply Hs. left. reflexivity.
Qed.

Lemma content_of_schema_ks s : ks_content (content_of_schema s) = ks_schema s.
Proof. destruct s. cbn. rewrite !app_nil_r. reflexivity. Qed.

Lemma cast_content_ks va c D : cast_content va = Ok c -> sub (ks_value (fst va)) D -> sub (ks_content c) D.
Proof.
  destruct va as [v a]. unfold cast_content. cbn [fst]. intros H Hs.
  destruct v; cbn [is_schema_like] in H; try discriminate H;
    try (apply bind_Ok in H as (sc & Hc & [= <-]); rewrite content_of_schema_ks; exact (cast_schema_ks (_, a) _ D Hc Hs)).
  injection H as <-. exact Hs.
Qed.

Lemma cast_ranges_ks va r D : cast_ranges va = Ok r -> sub (ks_value (fst va)) D -> sub (ks_ranges r) D.
Proof.
  destruct va as [v a]. unfold cast_ranges. cbn [fst]. intros H Hs.
  destruct v; cbn [is_content_like is_schema_like] in H; try discriminate H.
  all: try (injection H as <-; exact Hs).
  all: apply bind_Ok in H as (c0 & Hc & [= <-]); unfold ks_ranges; cbn [flat_map snd]; rewrite app_nil_r;
    exact (cast_content_ks (_, a) _ D Hc Hs).
Qed.

Lemma cast_property_ks : forall v p D, cast_property v = Ok p -> sub (ks_value v) D -> sub (ks_property p) D.
Proof.
  fix IH 1. intros v p D H Hs. destruct v; cbn [cast_property] in H; try discriminate H.
  - injection H as <-. exact Hs.
  - apply (IH v p D H). intros k' Hk. apply Hs. right. exact Hk.
Qed.

Lemma cast_object_ks : forall v ps D, cast_object v = Ok ps -> sub (ks_value v) D -> sub (ks_props ps) D.
Proof.
  fix IH 1. intros v ps D H Hs. destruct v; cbn [cast_object] in H; try discriminate H.
  - injection H as <-. exact Hs.
  - apply (IH v ps D H). intros k' Hk. apply Hs. right. exact Hk.
Qed.

Lemma cast_transfer_ks : forall v t D, cast_transfer v = Ok t -> sub (ks_value v) D -> sub (ks_transfer t) D.
Proof.
  fix IH 1. intros v t D H Hs. destruct v; cbn [cast_transfer] in H; try discriminate H.
  - injection H as <-. exact Hs.
  - apply (IH v t D H). intros k' Hk. apply Hs. right. exact Hk.
Qed.

Lemma cast_uri_ks : forall v u D, cast_uri v = Ok u -> sub (ks_value v) D -> sub (ks_uri u) D.
Proof.
  fix IH 1. intros v u D H Hs. destruct v; cbn [cast_uri] in H; try discriminate H.
  - injection H as <-. exact Hs.
  - destruct r as [u0 xs]. injection H as <-. cbn [ks_value ks_relation] in Hs. apply sub_app in Hs as [Hs _]. exact Hs.
  - apply (IH v u D H). intros k' Hk. apply Hs. right. exact Hk.
Qed.

Lemma cast_relation_ks : forall v r D, cast_relation v = Ok r -> sub (ks_value v) D -> sub (ks_relation r) D.
Proof.
  fix IH 1. intros v r D H Hs. destruct v; cbn [cast_relation] in H; try discriminate H.
  - injection H as <-. cbn [ks_relation]. apply sub_app. split; [exact Hs|apply sub_nil].
  - injection H as <-. exact Hs.
  - apply (IH v r D H). intros k' Hk. apply Hs. right. exact Hk.
Qed.

Lemma set_required_ks p b : ks_property (set_required p b) = ks_property p.
Proof. destruct p. reflexivity. Qed.

Lemma uri_append_ks l r u D : uri_append l r = Ok u -> sub (ks_uri l) D -> sub (ks_uri r) D -> sub (ks_uri u) D.
Proof.
  destruct l as [lp lprm lex], r as [rp rprm rex]. unfold uri_append.
  destruct (rev lp) as [|lastseg before] eqn:Hrev; [discriminate|]. intros [= <-] Hl Hr.
  cbn [ks_uri] in *. apply sub_app in Hl as [Hl _]. apply sub_app in Hr as [Hr1 Hr2].
  apply sub_app. split; [|exact Hr2]. rewrite flat_map_app. apply sub_app. split; [|exact Hr1].
  destruct (useg_is_empty lastseg); [|exact Hl].
  intros k Hk. apply Hl. apply in_flat_map in Hk as (x & Hx & Hk). apply in_flat_map. exists x. split; [|exact Hk].
  apply in_rev. rewrite Hrev. right. apply in_rev, Hx.
Qed.

Lemma set_nth_ks n t xs D : sub (ks_transfer t) D -> sub (ks_xfers xs) D -> sub (ks_xfers (set_nth n (Some t) xs)) D.
Proof.
  intros Ht. revert n. induction xs as [|x xs IH]; intros n Hx; [destruct n; exact Hx|].
  unfold ks_xfers in *. cbn [flat_map] in Hx. apply sub_app in Hx as [Hx1 Hx].
  destruct n; cbn [set_nth flat_map]; apply sub_app; split; auto.
Qed.

Lemma add_xfer_ks D xs t : sub (ks_xfers xs) D -> sub (ks_transfer t) D -> sub (ks_xfers (add_xfer xs t)) D.
Proof.
  intros Hx Ht. unfold add_xfer. destruct t as [ms dom rg prm d s tg i].
  apply (fold_left_inv (fun p => sub (ks_xfers (fst p)) D)); [|exact Hx].
  intros [xs0 n] [|] Hx0; [apply set_nth_ks; assumption|exact Hx0].
Qed.

Lemma im_insert_ranges_ks k c (r : ranges) D :
  sub (ks_content c) D -> sub (ks_ranges r) D -> sub (ks_ranges (im_insert rgkey_eqb k c r)) D.
Proof.
  intros Hc. induction r as [|[k' c'] r IH]; intros Hr; cbn [im_insert].
  - unfold ks_ranges. cbn [flat_map snd]. rewrite app_nil_r. exact Hc.
  - unfold ks_ranges in *. cbn [flat_map snd] in Hr. apply sub_app in Hr as [Hr1 Hr2].
    destruct (rgkey_eqb k k'); cbn [flat_map snd]; apply sub_app; split; auto.
Qed.

Lemma im_extend_ranges_ks D (m o : ranges) : sub (ks_ranges m) D -> sub (ks_ranges o) D -> sub (ks_ranges (im_extend rgkey_eqb m o)) D.
Proof.
  intros Hm Ho. apply sub_flat_map in Ho. unfold im_extend.
  refine (fold_left_invariant (fun m => sub (ks_ranges m) D) _ _ o _ m Hm Ho).
  intros a [k c] Ha Hc. apply im_insert_ranges_ks; assumption.
Qed.

Lemma prim_value_ks p a v : prim_value p a = Ok v -> ks_value v = [].
Proof.
  destruct (prim_value_cases p) as [->|[->|[->|[->|[->|[_ ->]]]]]]; intros [= <-]; reflexivity.
Qed.

Definition dom (r : list (rkey * option aval)) (k : rkey) : Prop := In k (map fst r).
Definition pending (r : list (rkey * option aval)) : list rkey :=
  flat_map (fun kv => match snd kv with None => [fst kv] | Some _ => [] end) r.
Definition neqk (k k' : rkey) : bool := negb (rkey_eqb k k').

Lemma rget_none_dom k r : rget k r = None <-> ~ dom r k.
Proof. exact (im_get_none rkey_eqb_iff k r). Qed.

Lemma rinsert_dom k x r k' : dom (rinsert k x r) k' <-> k' = k \/ dom r k'.
Proof. exact (im_insert_keys rkey_eqb_iff k x r k'). Qed.

Lemma pending_in k r : In k (pending r) <-> In (k, None) r.
Proof.
  unfold pending. rewrite in_flat_map. split.
  - intros ([k' [x|]] & Hin & Hk); cbn [fst snd] in Hk; [destruct Hk|]. destruct Hk as [<-|[]]. exact Hin.
  - intros H. exists (k, None). split; [exact H|left; reflexivity].
Qed.

Lemma pending_insert_none k r : ~ dom r k -> pending (rinsert k None r) = pending r ++ [k].
Proof.
  unfold rinsert, dom, pending. induction r as [|[k0 y] r IH]; cbn [im_insert map fst In flat_map snd]; intros H; [reflexivity|].
  destruct (rkey_eqb k k0) eqn:E; [apply rkey_eqb_eq in E; subst; exfalso; apply H; left; reflexivity|].
  cbn [flat_map fst snd]. rewrite IH by (intros H'; apply H; right; exact H'). rewrite app_assoc. reflexivity.
Qed.

Lemma filter_neqk_notin k l : ~ In k l -> filter (neqk k) l = l.
Proof.
  induction l as [|x l IH]; cbn [filter]; intros H; [reflexivity|].
  unfold neqk at 1. destruct (rkey_eqb k x) eqn:E; cbn [negb].
  - apply rkey_eqb_eq in E. subst. exfalso. apply H. left. reflexivity.
  - f_equal. apply IH. intros H'. apply H. right. exact H'.
Qed.

Lemma pending_insert_some k v r : NoDup (map fst r) -> pending (rinsert k (Some v) r) = filter (neqk k) (pending r).
Proof.
  unfold rinsert. induction r as [|[k0 y] r IH]; cbn [im_insert map fst]; intros H; [reflexivity|].
  inversion H as [|? ? Hn Hd]; subst. destruct (rkey_eqb k k0) eqn:E.
  - apply rkey_eqb_eq in E. subst k0. unfold pending at 1 2. cbn [flat_map fst snd app].
    assert (Hnot : ~ In k (pending r)). { intros Hin. apply pending_in in Hin. apply Hn. apply (in_map fst) in Hin. exact Hin. }
    fold (pending r). destruct y as [w|]; cbn [app filter].
    + symmetry. apply filter_neqk_notin, Hnot.
    + unfold neqk at 1. rewrite rkey_eqb_refl. cbn [negb]. symmetry. apply filter_neqk_notin, Hnot.
  - unfold pending at 1 2. cbn [flat_map fst snd]. fold (pending (im_insert rkey_eqb k (Some v) r)). fold (pending r).
    rewrite filter_app, IH by exact Hd. f_equal.
    destruct y as [w|]; cbn [filter]; [reflexivity|]. unfold neqk. rewrite E. reflexivity.
Qed.

Definition active (ss : list (N * scope)) (k : rkey) : Prop :=
  exists id sc x a, In (id, sc) ss /\ In (x, (VRecur k, a)) sc.
Definition allk (s : st) (k : rkey) : Prop := dom (refs s) k \/ active (scopes s) k.

Definition refs_cl (r : list (rkey * option aval)) (D : rkey -> Prop) : Prop :=
  forall k v a, In (k, Some (v, a)) r -> sub (ks_value v) D.
Definition scopes_cl (ss : list (N * scope)) (D : rkey -> Prop) : Prop :=
  forall id sc x v a, In (id, sc) ss -> In (x, (v, a)) sc -> sub (ks_value v) D.
Definition scope_cl (sc : scope) (D : rkey -> Prop) : Prop := forall x v a, In (x, (v, a)) sc -> sub (ks_value v) D.
Definition norec (l : list rkey) : Prop := forall k, In k l -> match k with KRec _ _ _ => False | _ => True end.

(** Beside closedness of the table and of the stack: keys are distinct, so that writing the
    value of a pending entry removes exactly that key from [pending]; and a recursion key is
    never pending (its entry is written once, with its value), so that closing a recursion
    point leaves [pending] as it was. *)
Record inv (s : st) : Prop := {
  inv_refs : refs_cl (refs s) (allk s);
  inv_scopes : scopes_cl (scopes s) (allk s);
  inv_nodup : NoDup (map fst (refs s));
  inv_norec : norec (pending (refs s)) }.

(** [Q] is what the caller wants of the state after and the result (for a value: its keys are in
    the table or active). The last conjunct: an evaluation fills every entry it opens. From [st0] this leaves nothing
    pending at the end of a program, and then [refs_table] keeps every key. *)
Definition good {B} (s : st) (Q : st -> B -> Prop) (r : res (st * B)) : Prop :=
  match r with
  | Ok (s', b) =>
      inv s' /\ Q s' b /\ (forall k, dom (refs s) k -> dom (refs s') k) /\
      scopes s' = scopes s /\ pending (refs s') = pending (refs s)
  | _ => True
  end.

(** what [good] says of the state after, beside the invariant and the result *)
Definition ext (s s' : st) : Prop :=
  (forall k, dom (refs s) k -> dom (refs s') k) /\ scopes s' = scopes s /\ pending (refs s') = pending (refs s).

Lemma ext_refl s : ext s s.
Proof. split; auto. Qed.

Lemma ext_trans s s1 s2 : ext s s1 -> ext s1 s2 -> ext s s2.
Proof. intros (Hd & Hs & Hp) (Hd' & Hs' & Hp'). split; [auto|split; congruence]. Qed.

Lemma sub_allk_mono l s s' : ext s s' -> sub l (allk s) -> sub l (allk s').
Proof. intros (Hd & Hs & _). apply sub_mono. intros k [H|H]; [left; apply Hd, H|right; rewrite Hs; exact H]. Qed.

Lemma good_ok {B} s (Q : st -> B -> Prop) s' b : inv s' -> Q s' b -> ext s s' -> good s Q (Ok (s', b)).
Proof. intros Hi Hq He. exact (conj Hi (conj Hq He)). Qed.

Lemma good_ret {B} s (R : st -> B -> Prop) b : inv s -> R s b -> good s R (Ok (s, b)).
Proof. intros Hi Hr. exact (good_ok s R s b Hi Hr (ext_refl s)). Qed.

Lemma good_pre {B} s s1 (R : st -> B -> Prop) r : ext s s1 -> good s1 R r -> good s R r.
Proof.
  destruct r as [[s2 b]| | |]; cbn [good]; auto.
  intros He (Hi & Hr & He'). exact (good_ok s R s2 b Hi Hr (ext_trans _ _ _ He He')).
Qed.

(** the continuation of a step that ran from [s] may answer for another state [s0] (the caller's, when
    the step is a body evaluated under a pushed scope) *)
Lemma good_bind_at {B C} s0 s (Q : st -> B -> Prop) (R : st -> C -> Prop) (r : res (st * B)) (k : st * B -> res (st * C)) :
  good s Q r -> (forall s1 b, inv s1 -> Q s1 b -> ext s s1 -> good s0 R (k (s1, b))) -> good s0 R (bind r k).
Proof.
  intros Hr Hk. destruct r as [[s1 b]| | |]; cbn [good bind] in *; try exact I.
  destruct Hr as (Hi & Hq & He). exact (Hk s1 b Hi Hq He).
Qed.

Lemma good_bind {B C} s (Q : st -> B -> Prop) (R : st -> C -> Prop) (r : res (st * B)) (k : st * B -> res (st * C)) :
  good s Q r -> (forall s1 b, inv s1 -> Q s1 b -> ext s s1 -> good s1 R (k (s1, b))) -> good s R (bind r k).
Proof.
  intros Hr Hk. apply (good_bind_at s s Q R r k Hr).
  intros s1 b Hi Hq He. exact (good_pre s s1 R _ He (Hk s1 b Hi Hq He)).
Qed.

Lemma good_pure {B C} s (R : st -> C -> Prop) (c : res B) (k : B -> res (st * C)) :
  (forall x, c = Ok x -> good s R (k x)) -> good s R (bind c k).
Proof. intros Hk. destruct c as [x|x|p|]; cbn [bind good]; try exact I. apply Hk. reflexivity. Qed.

(** closedness of a result with respect to the keys of the state it comes with *)
Definition CL {B} (ks : B -> list rkey) : st -> B -> Prop := fun s b => sub (ks b) (allk s).

Section Lists.
  Context {X B : Type}.
  Variable ks : B -> list rkey.
  Variable f : st -> X -> res (st * B).
  Hypothesis Hf : forall s x, inv s -> good s (CL ks) (f s x).

  Lemma map_st_good l : forall s, inv s -> good s (CL (flat_map ks)) (map_st f s l).
  Proof.
    induction l as [|x l IH]; intros s Hi; cbn [map_st].
    - apply good_ret; [exact Hi|apply sub_nil].
    - eapply good_bind; [apply Hf, Hi|].
      intros s1 b Hi1 Hb _. eapply good_bind; [apply IH, Hi1|].
      intros s2 bs Hi2 Hbs He. apply good_ret; [exact Hi2|].
      apply sub_app. split; [exact (sub_allk_mono _ s1 s2 He Hb)|exact Hbs].
  Qed.

  Lemma opt_st_good o : forall s, inv s ->
    good s (CL (fun ob => match ob with Some b => ks b | None => [] end)) (opt_st f s o).
  Proof.
    intros s Hi. destruct o as [x|]; cbn [opt_st].
    - eapply good_bind; [apply Hf, Hi|]. intros s1 b Hi1 Hb _. apply good_ret; assumption.
    - apply good_ret; [exact Hi|apply sub_nil].
  Qed.
End Lists.

Section Casts.
  Variable ev : st -> expr -> res (st * aval).
  Hypothesis Hev : forall s e, inv s -> good s (CL (fun va : aval => ks_value (fst va))) (ev s e).
  Context {B : Type} (c : aval -> res B).

  Lemma cast_good {C} (g : B -> C) (ks : C -> list rkey) :
    (forall va x D, c va = Ok x -> sub (ks_value (fst va)) D -> sub (ks (g x)) D) ->
    forall s e, inv s -> good s (CL ks) (do (s', v) <- ev s e; do x <- c v; Ok (s', g x)).
  Proof.
    intros Hc s e Hi. eapply good_bind; [apply Hev, Hi|].
    intros s1 va Hi1 Hva _. cbn beta iota. apply good_pure. intros x Hx.
    apply good_ret; [exact Hi1|exact (Hc va x _ Hx Hva)].
  Qed.

  Variable ks : B -> list rkey.
  Hypothesis Hc : forall va x D, c va = Ok x -> sub (ks_value (fst va)) D -> sub (ks x) D.

  Lemma casts_good es s : inv s ->
    good s (CL (flat_map ks)) (map_st (fun s e => do (s', v) <- ev s e; do x <- c v; Ok (s', x)) s es).
  Proof. apply map_st_good, (cast_good (fun x => x) ks Hc). Qed.

  Lemma ocast_good o s : inv s ->
    good s (CL (fun ob => match ob with Some b => ks b | None => [] end))
      (opt_st (fun s e => do (s', v) <- ev s e; do x <- c v; Ok (s', x)) s o).
  Proof. apply opt_st_good, (cast_good (fun x => x) ks Hc). Qed.
End Casts.

Lemma lookup_in x ss va : lookup_binding x ss = Some va -> exists id sc, In (id, sc) ss /\ In (x, va) sc.
Proof.
  induction ss as [|[id sc] ss IH]; cbn [lookup_binding]; [discriminate|].
  destruct (im_get N.eqb x sc) as [w|] eqn:E.
  - intros [= ->]. exists id, sc. split; [left; reflexivity|apply (im_get_in N.eqb_eq), E].
  - intros H. destruct (IH H) as (id' & sc' & H1 & H2). exists id', sc'. split; [right; exact H1|exact H2].
Qed.

Lemma scope_cl_mono sc (D D' : rkey -> Prop) : (forall k, D k -> D' k) -> scope_cl sc D -> scope_cl sc D'.
Proof. intros H Hs x v a Hin. exact (sub_mono _ _ _ H (Hs x v a Hin)). Qed.

Section Main.
  Variable P : prog.

  Definition VAL : st -> aval -> Prop := CL (fun va : aval => ks_value (fst va)).

  Lemma VAL_ref s key v a ann : allk s key -> VAL s (v, a) -> VAL s (VRef key v a, ann).
  Proof. intros Hk Hv k [<-|H]; [exact Hk|exact (Hv k H)]. Qed.

  Lemma allk_set_refs s key x k : allk s k -> allk (set_refs s (rinsert key x (refs s))) k.
  Proof. intros [H|H]; [left; apply rinsert_dom; right; exact H|right; exact H]. Qed.

  Lemma inv_set_refs s key x : inv s -> (forall v a, x = Some (v, a) -> sub (ks_value v) (allk s)) ->
    norec (pending (rinsert key x (refs s))) -> inv (set_refs s (rinsert key x (refs s))).
  Proof.
    intros [Hr Hs Hn _] Hx Hp. pose proof (allk_set_refs s key x) as Hmono.
    constructor; cbn [set_refs refs scopes]; [| |apply (im_insert_nodup rkey_eqb_iff), Hn|exact Hp].
    - intros k v a Hin. eapply sub_mono; [exact Hmono|].
      apply (im_insert_in rkey_eqb_iff) in Hin as [[_ Hk]|Hin]; [exact (Hx v a (eq_sym Hk))|eapply Hr, Hin].
    - intros id sc y v a H1 H2. eapply sub_mono; [exact Hmono|]. eapply Hs; eassumption.
  Qed.

  Lemma inv_set_refs_none s key : inv s -> rget key (refs s) = None ->
    match key with KRec _ _ _ => False | _ => True end ->
    inv (set_refs s (rinsert key None (refs s))).
  Proof.
    intros Hi Hget Hk. apply inv_set_refs; [exact Hi|intros v a [=]|].
    rewrite pending_insert_none by (apply rget_none_dom, Hget).
    intros k Hin. apply in_app_or in Hin as [Hin|[<-|[]]]; [apply (inv_norec s Hi), Hin|exact Hk].
  Qed.

  Lemma inv_set_refs_some s key v a :
    inv s -> sub (ks_value v) (allk s) -> inv (set_refs s (rinsert key (Some (v, a)) (refs s))).
  Proof.
    intros Hi Hv. apply inv_set_refs; [exact Hi|intros v' a' [= <- <-]; exact Hv|].
    rewrite pending_insert_some by apply (inv_nodup s Hi).
    intros k Hin. apply filter_In in Hin as [Hin _]. exact (inv_norec s Hi k Hin).
  Qed.

  Lemma allk_push s sc k : allk s k -> allk (push_scope s sc) k.
  Proof.
    intros [H|(id & sc' & x & a & H1 & H2)]; [left; exact H|right]. exists id, sc', x, a. split; [right; exact H1|exact H2].
  Qed.

  (** the new scope may mention the recursion keys it binds itself *)
  Lemma inv_push s sc : inv s -> scope_cl sc (allk (push_scope s sc)) -> inv (push_scope s sc).
  Proof.
    intros [Hr Hs Hn Hp] Hsc. pose proof (allk_push s sc) as Hmono.
    constructor; cbn [push_scope refs scopes]; try assumption.
    - intros k v a Hin. eapply sub_mono; [exact Hmono|]. eapply Hr, Hin.
    - intros id sc' x v a [[= <- <-]|H1] H2; [eapply Hsc, H2|].
      eapply sub_mono; [exact Hmono|]. eapply Hs; eassumption.
  Qed.

  Lemma inv_push_rec s x key : inv s -> inv (push_scope s [(x, (VRecur key, []))]).
  Proof.
    intros Hi. apply inv_push; [exact Hi|]. intros y v a0 [[= <- <- <-]|[]] k [<-|[]]. right.
    exists (seq s + 1), [(x, (VRecur key, []))], x, []. split; left; reflexivity.
  Qed.

  (** leaving a scope whose recursion keys are accounted for elsewhere *)
  Lemma inv_pop s id sc rest : inv s -> scopes s = (id, sc) :: rest ->
    (forall k x a, In (x, (VRecur k, a)) sc -> allk (pop_scope s) k) ->
    inv (pop_scope s) /\ (forall k, allk s k -> allk (pop_scope s) k).
  Proof.
    intros [Hr Hs Hn Hp] Hsc Hk.
    assert (Hmono : forall k, allk s k -> allk (pop_scope s) k).
    { intros k [H|(id' & sc' & x & a & H1 & H2)]; [left; exact H|].
      rewrite Hsc in H1. destruct H1 as [[= <- <-]|H1]; [eapply Hk, H2|].
      right. unfold pop_scope. cbn [scopes]. rewrite Hsc. cbn [tl]. exists id', sc', x, a. auto. }
    split; [|exact Hmono].
    constructor; cbn [pop_scope refs scopes]; try assumption.
    - intros k v a Hin. eapply sub_mono; [exact Hmono|]. eapply Hr, Hin.
    - intros id' sc' x v a H1 H2. rewrite Hsc in H1. cbn [tl] in H1.
      eapply sub_mono; [exact Hmono|]. eapply (Hs id' sc'); [rewrite Hsc; right; exact H1|exact H2].
  Qed.

  (** the three places where the code ([lexical = false]) changes the state: memoising a declaration,
      returning from the body of an application, closing a recursion point *)
  Lemma memo_good s key s2 v va ann : rget key (refs s) = None -> inv s2 -> VAL s2 (v, va) ->
    ext (set_refs s (rinsert key None (refs s))) s2 ->
    good s VAL (Ok (set_refs s2 (rinsert key (Some (v, va)) (refs s2)), (VRef key v va, ann))).
  Proof.
    intros Hget Hi2 Hv (Hd2 & Hs2 & Hp2). cbn [set_refs refs scopes] in Hd2, Hs2, Hp2. apply good_ok.
    - apply inv_set_refs_some; assumption.
    - apply VAL_ref; [left; apply rinsert_dom; left; reflexivity|]. intros k Hk. apply allk_set_refs, Hv, Hk.
    - split; [|split]; cbn [set_refs refs scopes].
      + intros k Hk. apply rinsert_dom. right. apply Hd2, rinsert_dom. right. exact Hk.
      + exact Hs2.
      + (* the key was pending since it was inserted, and is not any more *)
        rewrite pending_insert_some by (apply (inv_nodup s2 Hi2)).
        rewrite Hp2, pending_insert_none by (apply rget_none_dom, Hget).
        rewrite filter_app. cbn [filter]. unfold neqk at 2. rewrite rkey_eqb_refl. cbn [negb]. rewrite app_nil_r.
        apply filter_neqk_notin. intros Hin. apply pending_in in Hin. apply (in_map fst) in Hin.
        apply rget_none_dom in Hget. exact (Hget Hin).
  Qed.

  Lemma call_good s2 sc s3 rv : scope_cl sc (allk s2) -> inv s3 -> VAL s3 rv -> ext (push_scope s2 sc) s3 ->
    good s2 VAL (Ok (pop_scope s3, rv)).
  Proof.
    intros Hsc Hi3 Hv (Hd3 & Hs3 & Hp3). cbn [push_scope scopes refs] in Hs3, Hd3, Hp3.
    destruct (inv_pop s3 _ sc (scopes s2) Hi3 Hs3) as [Hi4 Hmono].
    { intros k x a0 Hin. destruct (Hsc x (VRecur k) a0 Hin k (or_introl eq_refl)) as [Hk|Hk]; [left; apply Hd3, Hk|right].
      unfold pop_scope. cbn [scopes]. rewrite Hs3. exact Hk. }
    apply good_ok; [exact Hi4|exact (sub_mono _ _ _ Hmono Hv)|].
    split; [exact Hd3|]. split; [unfold pop_scope; cbn [scopes]; rewrite Hs3; reflexivity|exact Hp3].
  Qed.

  Lemma rec_good s x m i c s1 rv ra :
    inv s1 -> VAL s1 (rv, ra) -> ext (push_scope s [(x, (VRecur (KRec m i c), []))]) s1 ->
    good s VAL (Ok (set_refs (pop_scope s1) (rinsert (KRec m i c) (Some (rv, ra)) (refs (pop_scope s1))),
                    (VRef (KRec m i c) rv ra, []))).
  Proof.
    intros Hi1 Hv (Hd1 & Hs1 & Hp1). cbn [push_scope scopes refs] in Hs1, Hd1, Hp1.
    (* the entry is written before the scope is left: the same state, and then the key the scope binds is in the table *)
    pose proof (inv_set_refs_some s1 (KRec m i c) rv ra Hi1 Hv) as Hi2.
    destruct (inv_pop _ _ _ (scopes s) Hi2 Hs1) as [Hi3 Hmono].
    { intros k y a0 [[= _ <- _]|[]]. left. apply rinsert_dom. left. reflexivity. }
    apply good_ok; [exact Hi3| |].
    - apply VAL_ref; [left; apply rinsert_dom; left; reflexivity|]. intros k Hk. apply Hmono, allk_set_refs, Hv, Hk.
    - split; [|split]; cbn [set_refs pop_scope refs scopes].
      + intros k Hk. apply rinsert_dom. right. apply Hd1, Hk.
      + rewrite Hs1. reflexivity.
      + rewrite pending_insert_some by (apply (inv_nodup s1 Hi1)).
        rewrite filter_neqk_notin; [exact Hp1|]. intros Hin. exact (inv_norec s1 Hi1 _ Hin).
  Qed.

  Section Args.
    Variable ev : st -> expr -> res (st * aval).
    Hypothesis Hev : forall s e, inv s -> good s VAL (ev s e).

    Lemma bind_args_good args : forall s ps sc, inv s -> scope_cl sc (allk s) ->
      good s (fun s' sc' => scope_cl sc' (allk s')) (bind_args ev s ps args sc).
    Proof.
      induction args as [|a args IH]; intros s [|p ps] sc Hi Hsc; cbn [bind_args]; try (apply good_ret; assumption).
      eapply good_bind; [apply Hev, Hi|].
      intros s1 [v a1] Hi1 Hv He. cbn beta iota. apply IH; [exact Hi1|].
      intros x w aw Hin. apply (im_insert_in N.eqb_eq) in Hin as [[_ [= -> ->]]|Hin]; [exact Hv|].
      exact (sub_allk_mono _ s s1 He (Hsc x w aw Hin)).
    Qed.

    Lemma eval_metas_good ms : forall s (acc : meta_acc), inv s -> sub (ks_oprops (snd acc)) (allk s) ->
      good s (fun s' (acc' : meta_acc) => sub (ks_oprops (snd acc')) (allk s')) (eval_metas ev s ms acc).
    Proof.
      induction ms as [|[k rhs] ms IH]; intros s acc Hi Hacc.
      - apply good_ret; assumption.
      - cbn [eval_metas]. eapply good_bind; [apply Hev, Hi|].
        intros s1 [v a1] Hi1 Hv He. cbn beta iota. destruct acc as [[status media] headers]. cbn [fst snd] in *.
        pose proof (sub_allk_mono _ s s1 He Hacc) as Hacc1.
        destruct k as [|[p|p|]]; apply good_pure; intros x Hx; apply IH; try assumption.
        exact (cast_object_ks _ _ _ Hx Hv).
    Qed.
  End Args.

  Lemma closure_step (ev : st -> expr -> ymap -> res (st * aval)) :
    (forall s e a, inv s -> good s VAL (ev s e a)) -> forall s e a, inv s -> good s VAL (eval_step false P ev s e a).
  Proof.
    intros IH s e a Hi.
    pose (EV := fun s e => ev s e []).
    assert (IH0 : forall s e, inv s -> good s VAL (EV s e)) by (intros; apply IH; assumption).
    destruct e; cbn [eval_step].
    (* the literals and the built-in function mention no key *)
    4-6,8: apply good_ret; [exact Hi|apply sub_nil].
    - (* ETerm *) apply good_pure. intros x _. apply IH, Hi.
    - (* ESub *) apply IH, Hi.
    - (* EPrim *) apply good_pure. intros v Hv. apply good_ret; [exact Hi|]. unfold VAL, CL. cbn [fst]. rewrite (prim_value_ks _ _ _ Hv). apply sub_nil.
    - (* EDecl *)
      destruct (get_decl P m i) as [d|]; [|exact I].
      destruct (d_params d) as [|p ps]; [|apply good_ret; [exact Hi|apply sub_nil]].
      apply good_pure. intros da _.
      destruct ((match d_ref d with Some _ => true | None => false end) || d_rec d); [|apply IH, Hi].
      set (key := decl_key d m i).
      assert (Hkey : match key with KRec _ _ _ => False | _ => True end) by (subst key; unfold decl_key; destruct (d_ref d); exact I).
      destruct (rget key (refs s)) as [[[v va]|]|] eqn:Hget.
      + apply (im_get_in rkey_eqb_iff) in Hget. apply good_ret; [exact Hi|].
        apply VAL_ref; [left; exact (in_map fst _ _ Hget)|exact (inv_refs s Hi _ _ _ Hget)].
      + apply (im_get_in rkey_eqb_iff) in Hget. apply good_ret; [exact Hi|].
        intros k [<-|[]]. left. exact (in_map fst _ _ Hget).
      + eapply good_bind_at; [apply IH, (inv_set_refs_none s key Hi Hget Hkey)|].
        intros s2 [v va] Hi2 Hv He. apply memo_good; assumption.
    - (* EBind *)
      destruct (lookup_binding x (scopes s)) as [[v prev]|] eqn:Hl; [|exact I].
      apply good_ret; [exact Hi|]. destruct (lookup_in _ _ _ Hl) as (id & sc & H1 & H2). exact (inv_scopes s Hi _ _ _ _ _ H1 H2).
    - (* EApp *)
      eapply good_bind; [apply IH0, Hi|].
      intros s1 fv Hi1 _ _. apply good_pure. intros lam Hlam.
      destruct (cast_lambda_cases _ _ Hlam) as [->|(m & i & ->)]; cbn iota.
      + eapply good_bind; [apply (map_st_good (fun va : aval => ks_value (fst va)) EV IH0), Hi1|].
        intros s2 vs Hi2 Hvs _. cbn beta iota.
        destruct vs as [|[vl al] [|[vr ar] [|v3 vs]]]; try exact I.
        unfold CL in Hvs. cbn [flat_map fst] in Hvs. rewrite app_nil_r in Hvs. apply sub_app in Hvs as [Hvl Hvr].
        apply good_pure; intros zru Hru; apply good_pure; intros zlu Hlu; apply good_pure; intros zu Hu.
        apply good_ret; [exact Hi2|]. exact (uri_append_ks _ _ _ _ Hu (cast_uri_ks _ _ _ Hlu Hvl) (cast_uri_ks _ _ _ Hru Hvr)).
      + destruct (get_decl P m i) as [d|]; [|exact I].
        eapply good_bind; [apply (bind_args_good EV IH0); [exact Hi1|intros x v a0 []]|].
        intros s2 sc Hi2 Hsc _. cbn beta iota. apply good_pure. intros da _.
        eapply good_bind_at; [apply IH, inv_push; [exact Hi2|exact (scope_cl_mono _ _ _ (allk_push s2 sc) Hsc)]|].
        intros s3 rv Hi3 Hv He. apply (call_good s2 sc); assumption.
    - (* ERec *)
      eapply good_bind_at; [apply IH, inv_push_rec, Hi|].
      intros s1 [rv ra] Hi1 Hv He. apply (rec_good s x); assumption.
    - (* EObj *)
      eapply good_bind; [apply (casts_good EV IH0 _ ks_property (fun va => cast_property_ks (fst va))), Hi|].
      intros s1 props Hi1 Hps _. apply good_ret; [exact Hi1|exact Hps].
    - (* EProp *) apply (cast_good EV IH0); [exact cast_schema_ks|exact Hi].
    - (* EUnary *)
      apply (cast_good EV IH0); [|exact Hi]. intros va pr D Hpr Hs. cbn [fst ks_value]. rewrite set_required_ks. exact (cast_property_ks _ _ _ Hpr Hs).
    - (* EArr *) apply (cast_good EV IH0); [exact cast_schema_ks|exact Hi].
    - (* EOp *)
      destruct (N.eqb op 3).
      + eapply good_bind; [apply (casts_good EV IH0 _ ks_ranges cast_ranges_ks), Hi|].
        intros s1 rs Hi1 Hrs _. apply good_ret; [exact Hi1|]. apply sub_flat_map in Hrs.
        exact (fold_left_invariant _ _ _ rs (im_extend_ranges_ks (allk s1)) [] (sub_nil _) Hrs).
      + destruct (vop_of op) as [o|]; [|exact I].
        eapply good_bind; [apply (casts_good EV IH0 _ ks_schema cast_schema_ks), Hi|].
        intros s1 ss Hi1 Hss _. apply good_ret; [exact Hi1|exact Hss].
    - (* ECont *)
      eapply good_bind; [apply (ocast_good EV IH0 _ ks_schema cast_schema_ks), Hi|].
      intros s1 schema Hi1 Hsch _. cbn beta iota zeta.
      eapply good_bind; [apply (eval_metas_good EV IH0); [exact Hi1|apply sub_nil]|].
      intros s2 [[status media] headers] Hi2 Hh He. apply good_ret; [exact Hi2|].
      apply sub_app. split; [|exact Hh].
      exact (sub_allk_mono _ s1 s2 He Hsch).
    - (* EXfer *)
      eapply good_bind; [apply (ocast_good EV IH0 _ ks_content cast_content_ks), Hi|].
      intros s1 dom0 Hi1 Hdom _. cbn beta iota zeta.
      eapply good_bind; [apply IH0, Hi1|]. intros s2 [rv ra] Hi2 Hrv He2. cbn beta iota.
      apply good_pure. intros rg Hrg.
      eapply good_bind; [apply (ocast_good EV IH0 _ ks_props (fun va => cast_object_ks (fst va))), Hi2|].
      intros s3 prm Hi3 Hprm He3. apply good_ret; [exact Hi3|].
      unfold VAL, CL. cbn [fst ks_value]. rewrite ks_transfer_eq.
      apply sub_app. split; [|apply sub_app; split].
      + apply (sub_allk_mono _ s1 s3 (ext_trans _ _ _ He2 He3)). destruct dom0 as [c|]; [exact Hdom|apply sub_nil].
      + exact (sub_allk_mono _ s2 s3 He3 (cast_ranges_ks _ _ _ Hrg Hrv)).
      + exact Hprm.
    - (* EUri *)
      eapply good_bind.
      { apply (map_st_good ks_useg), Hi.
        intros s0 [x0|v0] Hi0; [apply good_ret; [exact Hi0|apply sub_nil]|].
        apply (cast_good EV IH0 _ UVar); [exact (fun va => cast_property_ks (fst va))|exact Hi0]. }
      intros s1 path Hi1 Hpath _. cbn beta iota.
      eapply good_bind; [apply (ocast_good EV IH0 _ ks_props (fun va => cast_object_ks (fst va))), Hi1|].
      intros s2 prm Hi2 Hprm He. apply good_ret; [exact Hi2|].
      apply sub_app. split; [exact (sub_allk_mono _ s1 s2 He Hpath)|exact Hprm].
    - (* ERel *)
      eapply good_bind; [apply IH0, Hi|]. intros s1 [uv ua] Hi1 Huv _. cbn beta iota.
      apply good_pure. intros ur Hur.
      eapply good_bind; [apply (casts_good EV IH0 _ ks_transfer (fun va => cast_transfer_ks (fst va))), Hi1|].
      intros s2 ts Hi2 Hts He. apply good_ret; [exact Hi2|].
      apply sub_app. split.
      + exact (sub_allk_mono _ s1 s2 He (cast_uri_ks _ _ _ Hur Huv)).
      + apply sub_flat_map in Hts.
        exact (fold_left_invariant _ _ _ ts (add_xfer_ks (allk s2)) no_xfers (sub_nil _) Hts).
  Qed.

  Lemma closure : forall n s e a, inv s -> good s VAL (eval false P n s e a).
  Proof. induction n as [|n IH]; intros s e a; [intros _; exact I|]. rewrite eval_S. apply closure_step, IH. Qed.
End Main.

Lemma inv_st0 : inv st0.
Proof.
  constructor; cbn.
  - intros k v a [].
  - intros id sc x v a [].
  - constructor.
  - intros k [].
Qed.

Lemma refs_table_entries r : forall t, refs_table r = Ok t ->
  forall k sc, In (k, sc) t -> exists v a, In (k, Some (v, a)) r /\ cast_schema (v, a) = Ok sc.
Proof.
  induction r as [|[k [[v a]|]] r IH]; intros t Ht; cbn [refs_table] in Ht.
  - injection Ht as <-. intros k sc [].
  - apply bind_Ok in Ht as (sc & Hc & Ht). apply bind_Ok in Ht as (t' & Ht' & [= <-]).
    intros k' sc' [[= <- <-]|Hin]; [exists v, a; split; [left; reflexivity|exact Hc]|].
    destruct (IH t' Ht' k' sc' Hin) as (v' & a' & H1 & H2). exists v', a'. split; [right; exact H1|exact H2].
  - intros k' sc' Hin. destruct (IH t Ht k' sc' Hin) as (v' & a' & H1 & H2). exists v', a'. split; [right; exact H1|exact H2].
Qed.

Lemma refs_table_keys r : forall t, refs_table r = Ok t -> pending r = [] -> map fst t = map fst r.
Proof.
  induction r as [|[k [[v a]|]] r IH]; intros t Ht Hp; cbn [refs_table] in Ht.
  - injection Ht as <-. reflexivity.
  - apply bind_Ok in Ht as (sc & _ & Ht). apply bind_Ok in Ht as (t' & Ht' & [= <-]).
    cbn [map fst]. f_equal. exact (IH t' Ht' Hp).
  - discriminate Hp.
Qed.

Theorem spec_closed P n rs rels table :
  eval_program false P n rs = Ok (rels, table) ->
  (forall k, In k (flat_map ks_relation rels) -> In k (map fst table)) /\
  (forall k sc, In (k, sc) table -> forall k', In k' (ks_schema sc) -> In k' (map fst table)).
Proof.
  unfold eval_program. intros H.
  pose proof (casts_good (fun s e => eval false P n s e []) (fun s e => closure P n s e [])
                (fun v => cast_relation (fst v)) ks_relation (fun va => cast_relation_ks (fst va)) rs st0 inv_st0) as Hm.
  cbv beta in Hm.
  destruct (map_st _ st0 rs) as [[s1 rels']|x|p|]; cbn [bind good] in *; try discriminate H.
  destruct Hm as (Hi1 & Hrels & _ & Hs1 & Hp1). cbn [st0 scopes refs pending flat_map] in Hs1, Hp1.
  apply bind_Ok in H as (t & Ht & [= <- <-]).
  pose proof (refs_table_keys _ _ Ht Hp1) as Hkeys.
  assert (Hall : forall k, allk s1 k -> In k (map fst t)).
  { intros k [Hk|(id & sc & x & a & H1 & _)]; [rewrite Hkeys; exact Hk|]. rewrite Hs1 in H1. destruct H1. }
  split.
  - intros k Hk. apply Hall, Hrels, Hk.
  - intros k sc Hin k' Hk'. destruct (refs_table_entries _ _ Ht k sc Hin) as (v & a & H1 & H2).
    apply Hall. eapply (cast_schema_ks (v, a) sc (allk s1) H2); [|exact Hk'].
    eapply (inv_refs s1 Hi1), H1.
Qed.

(** non-vacuity: a recursive schema applied twice from inside a function; two components, both
    referenced, the table is closed *)
Definition ex_rec_P : prog :=
  [[ mk_decl None false [] [7] (ERec 0 1 9 (EObj [EProp 20 None (ETerm [] (EBind 7)); EProp 21 None (EArr (ETerm [] (EBind 9)))]));
     mk_decl None false [] [7; 8] (EObj [EProp 22 None (ESub (EApp (EDecl 0 0) [ETerm [] (EBind 7)]));
                                          EProp 23 None (ESub (EApp (EDecl 0 0) [ETerm [] (EBind 8)]))]) ]].
Definition ex_rec_rs : list expr :=
  [ERel (ETerm [] (EUri [inl 30] None))
        [EXfer [0] None (ECont (Some (EApp (EDecl 0 1) [ETerm [] (EPrim 1); ETerm [] (EPrim 3)])) []) None]].

Lemma ex_rec_two_components :
  exists rels sc1 sc2 k1 k2, eval_program false ex_rec_P 50 ex_rec_rs = Ok (rels, [(k1, sc1); (k2, sc2)]) /\ k1 <> k2 /\
    In k1 (flat_map ks_relation rels) /\ In k2 (flat_map ks_relation rels).
Proof. eexists _, _, _, _, _. split; [vm_compute; reflexivity|]. split; [discriminate|]. split; cbn; repeat (first [left; reflexivity|right]). Qed.
