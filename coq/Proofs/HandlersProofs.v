(** The handlers of one module (Model/Handlers.v, properties C17 and C18): go-to-definition and
    find-references are exact and inverse under the span discipline [ordered]. The file also
    holds what FolderProofs shares with it: elements of an [ordered] list are well formed and
    pairwise apart, and the handlers' searches are [find]. *)
From Coq Require Import Lia.
From Oal Require Import Handlers.

(** The search functions of the handlers are [find] with a predicate: what they return is
    the first match, which exists as soon as some element matches. *)
Lemma find_first {A} (p : A -> bool) l x : In x l -> p x = true ->
  exists y, find p l = Some y /\ In y l /\ p y = true.
Proof.
  intros Hin Hp. destruct (find p l) as [y|] eqn:E.
  - exists y. apply find_some in E. tauto.
  - rewrite (find_none _ _ E x Hin) in Hp. discriminate.
Qed.

Lemma find_all_false {A} (p : A -> bool) l : (forall x, In x l -> p x = false) -> find p l = None.
Proof.
  intros H. destruct (find p l) as [y|] eqn:E; [|reflexivity].
  apply find_some in E. destruct E as [Hin Hp]. rewrite (H y Hin) in Hp. discriminate.
Qed.

Lemma contains_spec s e i : contains s e i = true <-> s <= i < e.
Proof. unfold contains. rewrite andb_true_iff, N.leb_le, N.ltb_lt. reflexivity. Qed.

Lemma use_at_find us idx : use_at us idx = find (fun u => contains (u_start u) (u_end u) idx) us.
Proof. induction us as [|u us IH]; cbn [use_at find]; [|rewrite IH]; reflexivity. Qed.

Lemma ordered_wf us : ordered us -> forall u, In u us ->
  u_start u <= u_istart u < u_iend u /\ u_iend u <= u_end u.
Proof.
  induction us as [|w us IH]; intros Ho u Hin; [destruct Hin|].
  cbn [ordered] in Ho. destruct Hin as [<-|Hin]; [lia|apply IH; tauto].
Qed.

Lemma ordered_after u us : ordered (u :: us) -> forall v, In v us -> u_end u <= u_start v.
Proof.
  revert u. induction us as [|w us IH]; intros u H v Hin; [destruct Hin|].
  cbn [ordered] in H. destruct H as (A & B & C & D & E & F).
  destruct Hin as [<-|Hin]; [exact E|].
  specialize (IH w F v Hin). cbn [ordered] in F. lia.
Qed.

(** The uses may be the image of richer nodes (the variables of Folder.v): distinct nodes
    have disjoint uses, also when the uses themselves are equal. *)
Lemma ordered_apart {A} (f : A -> use) l : ordered (map f l) -> forall a b, In a l -> In b l ->
  a = b \/ u_end (f a) <= u_start (f b) \/ u_end (f b) <= u_start (f a).
Proof.
  induction l as [|c l IH]; intros Ho a b Ha Hb; [destruct Ha|]. cbn [map] in Ho.
  pose proof (ordered_after _ _ Ho) as Hafter.
  destruct Ha as [<-|Ha], Hb as [<-|Hb].
  - left. reflexivity.
  - right. left. apply Hafter, in_map, Hb.
  - right. right. apply Hafter, in_map, Ha.
  - apply IH; [cbn [ordered] in Ho; tauto|exact Ha|exact Hb].
Qed.

Lemma ordered_disjoint us : ordered us -> forall u v, In u us -> In v us ->
  u = v \/ u_end u <= u_start v \/ u_end v <= u_start u.
Proof. rewrite <- (map_id us) at 1. apply (ordered_apart (fun u => u)). Qed.

Theorem use_at_inside us : ordered us -> forall u idx, In u us -> u_start u <= idx < u_end u -> use_at us idx = Some u.
Proof.
  intros Ho u idx Hin Hidx. rewrite use_at_find.
  destruct (find_first (fun u => contains (u_start u) (u_end u) idx) us u Hin) as (w & -> & Hw & Pw);
    [apply contains_spec; exact Hidx|].
  apply contains_spec in Pw. f_equal.
  destruct (ordered_disjoint us Ho w u Hw Hin) as [E|[L|L]]; [exact E|lia|lia].
Qed.

Theorem goto_correct us : ordered us -> forall u idx, In u us -> u_start u <= idx < u_end u ->
  definition_at us idx = u_def u.
Proof. intros Ho u idx Hin Hidx. unfold definition_at. rewrite (use_at_inside us Ho u idx Hin Hidx). reflexivity. Qed.

Theorem goto_outside us idx : (forall u, In u us -> ~ (u_start u <= idx < u_end u)) -> definition_at us idx = None.
Proof.
  intros H. unfold definition_at. rewrite use_at_find, find_all_false; [reflexivity|].
  intros u Hu. apply not_true_iff_false. rewrite contains_spec. exact (H u Hu).
Qed.

Theorem refs_exact us d u : In u (references_of us d) <-> In u us /\ u_def u = Some d.
Proof.
  unfold references_of. rewrite filter_In. split; intros [A B]; split; try exact A.
  - destruct (u_def u) as [x|]; [|discriminate]. apply N.eqb_eq in B. congruence.
  - rewrite B. apply N.eqb_refl.
Qed.

Theorem refs_inverse us d : ordered us -> forall u, In u (references_of us d) ->
  definition_at us (u_istart u) = Some d.
Proof.
  intros Ho u Hu. apply refs_exact in Hu. destruct Hu as [Hin Hd].
  rewrite <- Hd. apply goto_correct; [exact Ho|exact Hin|].
  pose proof (ordered_wf us Ho u Hin). lia.
Qed.

(** [rename_edits] lists, after the identifier of the declaration, the identifier span of each
    use in [references_of]: those spans are pairwise disjoint *)
Theorem rename_use_edits_disjoint us d : ordered us ->
  forall u v, In u (references_of us d) -> In v (references_of us d) -> u <> v ->
  u_iend u <= u_istart v \/ u_iend v <= u_istart u.
Proof.
  intros Ho u v Hu Hv Hne. apply refs_exact in Hu. apply refs_exact in Hv.
  destruct Hu as [Hu _]. destruct Hv as [Hv _].
  pose proof (ordered_wf us Ho u Hu). pose proof (ordered_wf us Ho v Hv).
  destruct (ordered_disjoint us Ho u v Hu Hv) as [E|[L|L]]; [contradiction|left; lia|right; lia].
Qed.
