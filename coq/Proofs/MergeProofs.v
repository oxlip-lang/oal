(** Proofs about Model/Merge.v (property C14). *)
From Oal Require Import Merge.

Lemma get_set_same {A} k (v : A) m : get k (set k v m) = Some v.
Proof.
  induction m as [|[k' v'] m IH]; cbn [set get].
  - rewrite N.eqb_refl. reflexivity.
  - destruct (N.eqb k k') eqn:E; cbn [get]; rewrite ?N.eqb_refl, ?E; auto.
Qed.

Lemma get_set_other {A} k k' (v : A) m : k <> k' -> get k (set k' v m) = get k m.
Proof.
  intros Hne. apply N.eqb_neq in Hne. induction m as [|[k2 v2] m IH]; cbn [set get]; [rewrite Hne; reflexivity|].
  destruct (N.eqb_spec k' k2) as [<-|_]; cbn [get]; [rewrite Hne; reflexivity|].
  destruct (N.eqb k k2); [reflexivity|exact IH].
Qed.

Lemma get_remove_same {A} k (m : list (key * A)) : get k (remove k m) = None.
Proof.
  induction m as [|[k' v'] m IH]; cbn [remove get]; [reflexivity|].
  destruct (N.eqb_spec k k') as [->|Hne]; [exact IH|]. cbn [get].
  destruct (N.eqb_spec k k'); [contradiction|exact IH].
Qed.

Lemma get_remove_other {A} k k' (m : list (key * A)) : k <> k' -> get k (remove k' m) = get k m.
Proof.
  intros Hne. induction m as [|[k2 v2] m IH]; cbn [remove get]; [reflexivity|].
  destruct (N.eqb_spec k' k2) as [->|Hn2].
  - destruct (N.eqb_spec k k2); [contradiction|exact IH].
  - cbn [get]. destruct (N.eqb k k2); [reflexivity|exact IH].
Qed.

(** every top-level member other than paths and components is the base's *)
Theorem frame_top db p s b k :
  k <> K_PATHS -> k <> K_COMPONENTS ->
  get k (into_openapi db p s (Some b)) = get k b.
Proof.
  intros H1 H2. unfold into_openapi. rewrite get_set_other by exact H2. apply get_set_other. exact H1.
Qed.

Lemma components_into db p s ob :
  components_of (into_openapi db p s ob) =
  match s with Some v => set K_SCHEMAS v | None => remove K_SCHEMAS end
    (components_of match ob with Some b => b | None => db end).
Proof.
  unfold into_openapi, components_of at 1. rewrite get_set_same.
  unfold components_of. rewrite get_set_other by discriminate. destruct s; reflexivity.
Qed.

(** every member of components other than schemas is the base's (an absent
    components object counts as empty) *)
Theorem frame_components db p s b k :
  k <> K_SCHEMAS ->
  get k (components_of (into_openapi db p s (Some b))) = get k (components_of b).
Proof.
  intros H. rewrite components_into. destruct s; [apply get_set_other|apply get_remove_other]; exact H.
Qed.

(** paths and schema components come entirely from the program *)
Theorem paths_from_program db p s b :
  get K_PATHS (into_openapi db p s b) = Some (Opaque p).
Proof.
  unfold into_openapi. rewrite get_set_other by discriminate. apply get_set_same.
Qed.

Theorem schemas_from_program db p s b :
  get K_SCHEMAS (components_of (into_openapi db p s b)) = s.
Proof.
  rewrite components_into. destruct s; [apply get_set_same|apply get_remove_same].
Qed.

Corollary base_independent db p s b :
  get K_PATHS (into_openapi db p s (Some b)) = get K_PATHS (into_openapi db p s None) /\
  get K_SCHEMAS (components_of (into_openapi db p s (Some b))) =
  get K_SCHEMAS (components_of (into_openapi db p s None)).
Proof. rewrite !paths_from_program, !schemas_from_program. split; reflexivity. Qed.

(** the mutation "replace the whole components object" is not frame-preserving *)
Definition into_openapi_replace (paths : N) (schemas : N) (b : doc) : doc :=
  set K_COMPONENTS (Members [(K_SCHEMAS, schemas)]) (set K_PATHS (Opaque paths) b).

Lemma replace_components_breaks_frame :
  exists b k, k <> K_SCHEMAS /\
    get k (components_of (into_openapi_replace 0 0 b)) <> get k (components_of b).
Proof.
  exists [(K_COMPONENTS, Members [(7%N, 9%N)])], 7%N. split; [discriminate|]. cbn. discriminate.
Qed.
