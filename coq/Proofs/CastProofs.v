(** The cast table is exact: whenever the guard of a cast site passes for a resolved tag and
    the tag admits the value form, the cast accepts the form or the pair is one of the known
    failing triples (each of which is refuted by a witness). *)
From Oal Require Import Tag Cast.

Definition resolved (t : tag) : bool := negb (is_var t).

Lemma cast_ok_ref s k : cast_ok s (FRef k) = true \/ cast_ok s (FRef k) = cast_ok s k.
Proof. destruct s; cbn; auto. Qed.

(** one entry of the table, as a boolean that evaluates *)
Lemma table_entry s t k : cast_ok s k || known s k || negb (check s t) = true ->
  check s t = true -> cast_ok s k = true \/ known s k = true.
Proof. intros H Hc. rewrite Hc, orb_false_r in H. apply orb_true_iff, H. Qed.

(** Under a reference the known triples are keyed by the same core form, and a cast either
    accepts every reference or looks through it: the table is needed for the literal forms only.
    For such a form the tags that do not admit it go first, the sites are evaluated last. *)
(* the tag need not be resolved: an unresolved tag admits no form *)
Theorem cast_table s t k : check s t = true -> admits t k = true -> cast_ok s k = true \/ known s k = true.
Proof.
  intros Hc Ha. induction k as [| | | | | | | | | | | | | | |k IH];
    [> apply (table_entry s t _); [clear Hc|exact Hc]; destruct t as [[]| | |];
       try exact (False_ind _ (Bool.diff_false_true Ha)); clear Ha; destruct s; reflexivity .. | ].
  cbn [admits] in Ha. apply andb_true_iff in Ha as [_ Ha].
  destruct (IH Ha) as [H|H]; [left|right; exact H].
  destruct (cast_ok_ref s k) as [E|E]; [exact E|rewrite E; exact H].
Qed.

Theorem cast_table_exact s t k :
  resolved t = true -> check s t = true -> admits t k = true ->
  cast_ok s k = true \/ known s k = true.
Proof. intros _. apply cast_table. Qed.

(** each known triple is a real failure: the guard passes, the tag admits the form, the cast panics *)
Lemma K1_ranges_in_domain :
  check SDomain (TBase BContent) = true /\ admits (TBase BContent) FRanges = true /\ cast_ok SDomain FRanges = false.
Proof. repeat split. Qed.
Lemma K11_operation_as_headers :
  check SHeaders (TBase BObject) = true /\ admits (TBase BObject) FOp = true /\ cast_ok SHeaders FOp = false.
Proof. repeat split. Qed.
Lemma K10_recursion_as_headers :
  check SHeaders (TBase BObject) = true /\ admits (TBase BObject) FRecursion = true /\ cast_ok SHeaders FRecursion = false.
Proof. repeat split. Qed.
Lemma K12_operation_as_uri :
  check SRelUri (TBase BUri) = true /\ admits (TBase BUri) FOp = true /\ cast_ok SRelUri FOp = false.
Proof. repeat split. Qed.
Lemma K12_operation_as_resource :
  check SResource (TBase BRelation) = true /\ admits (TBase BRelation) FOp = true /\ cast_ok SResource FOp = false.
Proof. repeat split. Qed.
Lemma K12_operation_as_concat_argument :
  check SConcatArg (TBase BUri) = true /\ admits (TBase BUri) FOp = true /\ cast_ok SConcatArg FOp = false.
Proof. repeat split. Qed.

Lemma K16_recursion_as_resource :
  check SResource (TBase BRelation) = true /\ admits (TBase BRelation) (FRef FRecursion) = true
  /\ cast_ok SResource (FRef FRecursion) = false.
Proof. repeat split. Qed.

(** K2: an unresolved tag variable passes the guard of most sites (here the content body) and
    admits nothing we can bound: a value of any form may flow there across modules *)
Lemma K2_unresolved_passes_guards v :
  check SBody (TVar v) = true /\ cast_ok SBody FContent = false.
Proof. split; reflexivity. Qed.

Corollary cast_never_panics s t k :
  resolved t = true -> check s t = true -> admits t k = true -> known s k = false -> cast_ok s k = true.
Proof.
  intros Hr Hc Ha Hk. destruct (cast_table_exact s t k Hr Hc Ha) as [H|H]; [exact H|congruence].
Qed.
