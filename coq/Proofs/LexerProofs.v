(** The tokenizer model: when a text has no lexical error its tokens tile it exactly (every
    token is non-empty, consecutive, and together they cover the whole text), so there are at
    most as many tokens as characters, and the syntax front end of the model (tokenizer, then
    parser) terminates with fuel linear in the length of the text. *)
From Oal Require Import Text Lexer Peg Grammar GrammarProofs GrammarTerm PegTerm PositionProofs.
From Coq Require Import Lia Arith.
Local Open Scope nat_scope.

Lemma span_le p t : span p t <= length t.
Proof. induction t as [|c t IH]; cbn [span length]; [lia|]. destruct (p c); lia. Qed.

Lemma until_le p t n : until p t = Some n -> n <= length t.
Proof.
  revert n. induction t as [|c t IH]; intros n H; cbn [until] in H; [discriminate|].
  destruct (p c); [injection H as <-; cbn; lia|].
  destruct (until p t) as [m|]; [|discriminate]. injection H as <-. specialize (IH m eq_refl). cbn [length]. lia.
Qed.

Lemma block_tail_le f : forall t n, block_tail f t = Some n -> n <= length t.
Proof.
  induction f as [|f IH]; intros t n H; [discriminate|]. cbn [block_tail] in H.
  destruct t as [|c t]; [discriminate|]. destruct (N.eqb c 42).
  - destruct t as [|d t]; [discriminate|]. destruct (N.eqb d 47); [injection H as <-; cbn; lia|].
    destruct (block_tail f t) as [m|] eqn:E; [|discriminate]. injection H as <-. specialize (IH t m E). cbn [length]. lia.
  - destruct (block_tail f t) as [m|] eqn:E; [|discriminate]. injection H as <-. specialize (IH t m E). cbn [length]. lia.
Qed.

Lemma lit_le s : forall t n, lit s t = Some n -> n <= length t.
Proof.
  unfold lit. induction s as [|a s IH]; intros [|b t] n; cbn [length]; try (intros [= <-]; lia); try discriminate.
  destruct (N.eqb a b); cbn [andb]; [|discriminate]. specialize (IH t (length s)).
  (* the condition is the prefix test of [lit] on the tails *)
  match goal with |- (if ?pre then _ else _) = _ -> _ => destruct pre end; [|discriminate].
  intros [= <-]. specialize (IH eq_refl). lia.
Qed.

Lemma skipn_span_le (r : list N) p q : span p r + span q (skipn (span p r) r) <= length r.
Proof.
  pose proof (span_le p r). pose proof (span_le q (skipn (span p r) r)). rewrite skipn_length in H0. lia.
Qed.

Lemma span_some_le p l (g : nat -> nat) k n :
  (forall m, S m <= length l -> g m <= k) -> match span p l with 0 => None | S m => Some (g m) end = Some n -> n <= k.
Proof. intros Hg. pose proof (span_le p l) as Hs. destruct (span p l); [discriminate|]. intros [= <-]. auto. Qed.

Lemma option_map_le (f : nat -> nat) o l k n :
  (forall m, o = Some m -> m <= l) -> (forall m, m <= l -> f m <= k) -> option_map f o = Some n -> n <= k.
Proof. intros Ho Hf. destruct o as [m|]; [|discriminate]. intros [= <-]. auto. Qed.

(** Every kind matches inside the text. The kinds are taken one by one as [best] scans them, so
    that [match_kind] is evaluated at a given kind and never analysed by cases on an unknown one.
    Most kinds are literals; the others test the first characters and then measure a run. *)
Lemma kinds_le t :
  Forall (fun k => forall n, match_kind k t = Some n -> n <= length t) (map N.of_nat (List.seq 0 NKINDS)).
Proof.
  cbv [NKINDS List.seq map N.of_nat Pos.of_succ_nat Pos.succ].
  repeat apply Forall_cons; [..|apply Forall_nil]; cbv beta iota delta [match_kind]; try exact (lit_le _ t).
  all: intros n; repeat match goal with |- match ?x with _ => _ end = _ -> _ => is_var x; destruct x end; try discriminate.
  (* what is left is one of: a non-empty run; [until] or [block_tail] after an opening; a test of
     the first character, then a run; a sum of two runs (comments, annotations) or a constant *)
  all: cbn [length];
    lazymatch goal with
    | |- match span _ _ with _ => _ end = _ -> _ => apply span_some_le; intros; lia
    | |- option_map _ (until _ _) = _ -> _ => apply (option_map_le _ _ (length t)); [apply until_le|intros; lia]
    | |- option_map _ (block_tail _ _) = _ -> _ => apply (option_map_le _ _ (length t)); [apply block_tail_le|intros; lia]
    | |- (if ?c then _ else _) = _ -> _ => destruct c; [|discriminate]; intros [= <-]; pose proof (span_le is_ident t); lia
    | |- Some _ = _ -> _ => intros [= <-]; pose proof (skipn_span_le t (fun c => negb (is_nl c)) is_nl); lia
    end.
Qed.

Definition pick (t : list N) (acc : option (N * nat)) (k : N) : option (N * nat) :=
  match match_kind k t with
  | Some (S n) => match acc with
                  | Some (_, m) => if Nat.ltb m (S n) then Some (k, S n) else acc
                  | None => Some (k, S n)
                  end
  | _ => acc
  end.

Definition upto (t : list N) (j : nat) (Q : nat -> Prop) : Prop :=
  forall k, k < j -> forall n, match_kind (N.of_nat k) t = Some n -> Q n.

Lemma upto_S t j (Q : nat -> Prop) :
  upto t j Q -> (forall n, match_kind (N.of_nat j) t = Some n -> Q n) -> upto t (S j) Q.
Proof. intros H Hj k Hk. destruct (Nat.eq_dec k j) as [->|Hne]; [exact Hj|apply H; lia]. Qed.

Lemma upto_impl t j (Q Q' : nat -> Prop) : (forall n, Q n -> Q' n) -> upto t j Q -> upto t j Q'.
Proof. intros HQ H k Hk n Hm. exact (HQ n (H k Hk n Hm)). Qed.

(** invariant of the scan after the kinds [0 .. j-1]: the choice [k0] is a longest match among
    them, and (last conjunct) the kinds before it match strictly less, so it is the first of the longest *)
Definition scan_ok (t : list N) (j : nat) (acc : option (N * nat)) : Prop :=
  match acc with
  | None => upto t j (fun n => n = 0)
  | Some (k0, n0) =>
      exists c, k0 = N.of_nat c /\ c < j /\ 1 <= n0 /\ match_kind k0 t = Some n0 /\
      upto t j (fun n => n <= n0) /\ upto t c (fun n => n < n0)
  end.

Lemma scan_ok_skip t j acc :
  scan_ok t j acc -> (forall n, match_kind (N.of_nat j) t = Some n -> n = 0) -> scan_ok t (S j) acc.
Proof.
  intros H Hj. destruct acc as [[k0 n0]|]; cbn [scan_ok] in *; [|exact (upto_S t j _ H Hj)].
  destruct H as (c & -> & Hc & H1 & H2 & H4 & H5). exists c. repeat split; try assumption; try lia.
  apply upto_S; [exact H4|]. intros n Hm. rewrite (Hj n Hm). lia.
Qed.

Lemma pick_ok t j acc : scan_ok t j acc -> scan_ok t (S j) (pick t acc (N.of_nat j)).
Proof.
  intros H. unfold pick. destruct (match_kind (N.of_nat j) t) as [[|n]|] eqn:Em.
  - apply scan_ok_skip; [exact H|]. intros n' Hm. congruence.
  - assert (Hj : forall n', match_kind (N.of_nat j) t = Some n' -> n' <= S n)
      by (intros n' Hm; rewrite Em in Hm; injection Hm as <-; lia).
    (* kind [j] is the new choice when the kinds before it all match strictly less *)
    assert (Hnew : upto t j (fun n' => n' < S n) -> scan_ok t (S j) (Some (N.of_nat j, S n))).
    { intros Hlt. exists j. repeat split; try lia; try assumption.
      apply upto_S; [|exact Hj]. apply (upto_impl t j (fun n' => n' < S n)); [intros; lia|exact Hlt]. }
    destruct acc as [[k0 n0]|]; cbn [scan_ok] in H.
    + destruct H as (c & -> & Hc & H1 & H2 & H4 & H5). destruct (Nat.ltb_spec n0 (S n)) as [Hlt|Hge].
      * apply Hnew, (upto_impl t j (fun n' => n' <= n0)); [intros; lia|exact H4].
      * exists c. repeat split; try assumption; try lia.
        apply upto_S; [exact H4|]. intros n' Hm. specialize (Hj n' Hm). lia.
    + apply Hnew, (upto_impl t j (fun n' => n' = 0)); [intros; lia|exact H].
  - apply scan_ok_skip; [exact H|]. intros n' Hm. congruence.
Qed.

Lemma scan_all t : forall j, scan_ok t j (fold_left (pick t) (map N.of_nat (List.seq 0 j)) None).
Proof.
  induction j as [|j IH]; [cbn; intros k Hk; lia|].
  rewrite seq_S, map_app, fold_left_app. cbn [map fold_left Nat.add]. apply pick_ok, IH.
Qed.

(* [best t] is that fold over all the kinds *)
Lemma best_scan t : scan_ok t NKINDS (best t).
Proof. exact (scan_all t NKINDS). Qed.

(** the token [lex] takes at a position: a longest match of any kind, non-empty, and of the
    first kind in declaration order among the longest *)
Theorem best_is_maximal_munch t k0 n0 : best t = Some (k0, n0) ->
  1 <= n0 /\ match_kind k0 t = Some n0 /\
  (forall k n, k < NKINDS -> match_kind (N.of_nat k) t = Some n -> n <= n0) /\
  (forall k n, (N.of_nat k < k0)%N -> match_kind (N.of_nat k) t = Some n -> n < n0).
Proof.
  intros H. pose proof (best_scan t) as S. rewrite H in S. cbn [scan_ok] in S.
  destruct S as (c & -> & Hc & H1 & H2 & H4 & H5). repeat split; try assumption.
  - intros k n Hk Hm. exact (H4 k Hk n Hm).
  - intros k n Hk Hm. apply (H5 k ltac:(lia) n Hm).
Qed.

Theorem best_none t : best t = None -> forall k n, k < NKINDS -> match_kind (N.of_nat k) t = Some n -> n = 0.
Proof.
  intros H k n Hk Hm. pose proof (best_scan t) as S. rewrite H in S. exact (S k Hk n Hm).
Qed.

Lemma best_bounds t k n : best t = Some (k, n) -> 1 <= n <= length t.
Proof.
  intros H. pose proof (best_scan t) as S. rewrite H in S.
  destruct S as (c & -> & Hc & H1 & H2 & _). split; [exact H1|].
  pose proof (kinds_le t) as F. rewrite Forall_forall in F.
  apply (F (N.of_nat c)); [apply in_map, List.in_seq; lia|exact H2].
Qed.

Fixpoint total (toks : list (N * nat)) : nat :=
  match toks with [] => 0 | (_, n) :: r => n + total r end.

Lemma lex_tiles : forall f t toks, lex f t = Some toks ->
  Forall (fun kn => 1 <= snd kn) toks /\ total toks = length t.
Proof.
  induction f as [|f IH]; intros t toks H; cbn [lex] in H.
  - destruct t; [|discriminate]. injection H as <-. split; [constructor|reflexivity].
  - destruct t as [|c t]; [injection H as <-; split; [constructor|reflexivity]|].
    destruct (best (c :: t)) as [[k n]|] eqn:Eb; [|discriminate].
    destruct (lex f (skipn n (c :: t))) as [r|] eqn:El; [|discriminate]. cbn [option_map] in H. injection H as <-.
    pose proof (best_bounds _ _ _ Eb) as Hn. destruct (IH _ _ El) as [Hf Ht].
    split; [constructor; [cbn; lia|exact Hf]|]. cbn [total]. rewrite Ht, skipn_length. lia.
Qed.

Lemma total_count toks : Forall (fun kn : N * nat => 1 <= snd kn) toks -> length toks <= total toks.
Proof. induction 1 as [|[k n] r Hn _ IH]; cbn [length total]; [lia|]. cbn in Hn. lia. Qed.

(** the fuel [length t] that [tokenize] passes is never the reason for a failure *)
Lemma lex_fuel : forall f1 f2 t, length t <= f1 -> length t <= f2 -> lex f1 t = lex f2 t.
Proof.
  induction f1 as [|f1 IH]; intros f2 t H1 H2.
  - destruct t; [|cbn in H1; lia]. destruct f2; reflexivity.
  - destruct t as [|c t]; [destruct f2; reflexivity|]. destruct f2 as [|f2]; [cbn in H2; lia|].
    cbn [lex]. destruct (best (c :: t)) as [[k n]|] eqn:Eb; [|reflexivity].
    pose proof (best_bounds _ _ _ Eb) as Hn.
    rewrite (IH f2); [reflexivity| |]; rewrite skipn_length; cbn [length] in *; lia.
Qed.

Theorem tokenize_tiles t toks : tokenize t = Some toks ->
  Forall (fun kn => 1 <= snd kn) toks /\ total toks = length t /\ length toks <= length t.
Proof.
  unfold tokenize. destruct (lex (length t) t) as [r|] eqn:E; [|discriminate].
  destruct (numbers_ok r t); [|discriminate]. intros [= <-].
  destruct (lex_tiles _ _ _ E) as [Hf Ht]. repeat split; try assumption. rewrite <- Ht. apply total_count, Hf.
Qed.

(* consecutive, non-empty spans from [s] to [e] *)
Fixpoint chain (s : N) (l : list (N * N * N)) (e : N) : Prop :=
  match l with
  | [] => s = e
  | (_, a, b) :: r => a = s /\ (a < b)%N /\ chain b r e
  end.

Lemma len8s_pos_firstn n (t : list N) : 1 <= n <= length t -> (0 < len8s (firstn n t))%N.
Proof.
  intros [H1 H2]. destruct t as [|c t]; [cbn in H2; lia|]. destruct n; [lia|]. cbn [firstn len8s].
  pose proof (PositionProofs.len8_pos c). lia.
Qed.

Lemma spans_chain : forall toks t off,
  Forall (fun kn : N * nat => 1 <= snd kn) toks -> total toks = length t ->
  chain off (spans toks t off) (off + len8s t).
Proof.
  induction toks as [|[k n] r IH]; intros t off Hf Ht; cbn [spans chain].
  - destruct t; [cbn; lia|discriminate].
  - inversion Hf as [|? ? Hn Hr]; subst. cbn in Hn. cbn [total] in Ht.
    split; [reflexivity|]. split.
    + pose proof (len8s_pos_firstn n t ltac:(lia)). lia.
    + replace (off + len8s t)%N with (off + len8s (firstn n t) + len8s (skipn n t))%N
        by (rewrite <- N.add_assoc, <- PositionProofs.len8s_app, firstn_skipn; reflexivity).
      apply IH; [exact Hr|]. rewrite skipn_length. lia.
Qed.

Theorem tokenize_spans_tile t toks : tokenize t = Some toks ->
  chain 0 (spans toks t 0) (len8s t).
Proof.
  intros H. destruct (tokenize_tiles _ _ H) as (Hf & Ht & _).
  exact (spans_chain toks t 0%N Hf Ht).
Qed.

(** every span bound is the UTF-8 length of a prefix of the text: a character boundary *)
Lemma spans_boundaries : forall toks pre t k a b,
  In (k, a, b) (spans toks t (len8s pre)) ->
  exists p1 p2 q, pre ++ t = p1 ++ p2 ++ q /\ a = len8s p1 /\ b = len8s (p1 ++ p2).
Proof.
  induction toks as [|[k0 n] r IH]; intros pre t k a b Hin; cbn [spans] in Hin; [destruct Hin|].
  destruct Hin as [E|Hin].
  - injection E as <- <- <-. exists pre, (firstn n t), (skipn n t).
    rewrite firstn_skipn, PositionProofs.len8s_app. repeat split.
  - rewrite <- PositionProofs.len8s_app in Hin. apply IH in Hin as (p1 & p2 & q & E & Ha & Hb).
    exists p1, p2, q. rewrite <- app_assoc, firstn_skipn in E. repeat split; assumption.
Qed.

Theorem tokenize_spans_on_boundaries t toks k a b : tokenize t = Some toks ->
  In (k, a, b) (spans toks t 0) ->
  exists p1 p2 q, t = p1 ++ p2 ++ q /\ a = len8s p1 /\ b = len8s (p1 ++ p2).
Proof. intros _ Hin. exact (spans_boundaries toks [] t k a b Hin). Qed.

Theorem front_end_terminates t toks n : tokenize t = Some toks ->
  PegTerm.B OR OZ (length t) (S (orank Grammar.P_PROGRAM)) 1 <= n ->
  parse_pure n (map fst toks) <> Fuel.
Proof.
  intros H Hn. apply oal_parse_terminates. rewrite map_length.
  destruct (tokenize_tiles _ _ H) as (_ & _ & Hc).
  pose proof (B_mono_u OR OZ (length toks) (length t) (S (orank Grammar.P_PROGRAM)) 1 Hc). lia.
Qed.

(** non-vacuity: a text that tokenizes, with a multi-byte character inside a string *)
Example ex_text : list N := [108; 101; 116; 32; 120; 32; 61; 32; 34; 233; 8364; 34; 59]%N.
Example ex_tokenizes : option_map (fun toks => spans toks ex_text 0%N) (tokenize ex_text)
  = Some [(20, 0, 3); (0, 3, 4); (26, 4, 5); (0, 5, 6); (48, 6, 7); (0, 7, 8); (29, 8, 15); (40, 15, 16)]%N.
Proof. vm_compute. reflexivity. Qed.
