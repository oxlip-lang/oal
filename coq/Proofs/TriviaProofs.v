(** The parse depends on the non-trivia tokens only (C05: inserting comments or whitespace
    between tokens; C11): for every grammar of the embedding, running the parser on a token
    list and running it on the same list with every trivia token (space, comments) removed give
    the same answer, once cursors and leaves are translated to positions among the non-trivia
    tokens. Hence two token lists with the same non-trivia tokens parse alike, with the same
    fuel. (That the tokenizer turns a comment or a blank into a trivia token and leaves its
    neighbours alone is the tokenizer model's business, Lexer.v.) *)
From Coq Require Import Lia Arith PeanoNat.
From Oal Require Import ListFacts Peg PegProofs PegYield.

Section Trivia.
Variable class_ok : N -> N -> bool.
Variable is_trivia : N -> bool.
Variable K_IDENT_REF : N.
Variable g : nat -> pexp.
Variable toks : list N.

Definition nt (k : N) : bool := negb (is_trivia k).
Definition toks' : list N := filter nt toks.

Notation run := (Peg.run class_ok is_trivia K_IDENT_REF g toks).
Notation run' := (Peg.run class_ok is_trivia K_IDENT_REF g toks').
Notation skip := (Peg.skip is_trivia toks).
Notation skip' := (Peg.skip is_trivia toks').
Notation kind_at := (Peg.kind_at toks).
Notation kind_at' := (Peg.kind_at toks').
Notation aligned := (PegYield.aligned is_trivia toks).

(** the position of cursor [s] among the non-trivia tokens *)
Definition phi (s : nat) : nat := length (filter nt (firstn s toks)).

Fixpoint tm (t : tree) : tree :=
  match t with Leaf i => Leaf (phi i) | Node k cs => Node k (map tm cs) end.

Definition rmap (r : res) : res :=
  match r with Ok s ms => Ok (phi s) (map tm ms) | Fail => Fail | Fuel => Fuel end.

Lemma phi_S s k : kind_at s = Some k -> phi (S s) = if nt k then S (phi s) else phi s.
Proof.
  intros H. unfold phi. rewrite (firstn_S_nth toks s k H), filter_app, app_length. cbn [filter].
  destruct (nt k); cbn [length]; lia.
Qed.

Lemma phi_end s : length toks <= s -> phi s = length toks'.
Proof. intros H. unfold phi, toks'. rewrite firstn_all2 by exact H. reflexivity. Qed.

Lemma phi_le s : phi s <= length toks'.
Proof.
  unfold phi, toks'. rewrite <- (firstn_skipn s toks) at 2. rewrite filter_app, app_length. lia.
Qed.

Lemma kind_at_phi s k : kind_at s = Some k -> nt k = true -> kind_at' (phi s) = Some k.
Proof.
  intros H Hk. unfold Peg.kind_at, toks', phi in *.
  rewrite <- (firstn_skipn s toks) at 1. rewrite filter_app.
  rewrite nth_error_app2 by lia. rewrite Nat.sub_diag.
  rewrite (proj2 (skipn_eq_cons toks s k _) (conj eq_refl H)). cbn [filter]. rewrite Hk. reflexivity.
Qed.

Lemma kind_at_none s : kind_at s = None -> kind_at' (phi s) = None.
Proof.
  intros H. unfold Peg.kind_at in *. apply nth_error_None in H. rewrite (phi_end s H). apply nth_error_None. lia.
Qed.

Lemma phi_skip_from : forall rest s, skipn s toks = rest -> phi (skip_from is_trivia rest s) = phi s.
Proof.
  induction rest as [|k rest IH]; intros s Hs; cbn [skip_from]; [reflexivity|].
  apply skipn_eq_cons in Hs as [Hs' Hk].
  destruct (is_trivia k) eqn:Et; [|reflexivity].
  rewrite (IH (S s) Hs'). rewrite (phi_S s k Hk). unfold nt. rewrite Et. reflexivity.
Qed.

Lemma phi_skip s : phi (skip s) = phi s.
Proof. unfold Peg.skip. apply phi_skip_from. reflexivity. Qed.

Lemma toks'_nt k : In k toks' -> is_trivia k = false.
Proof. unfold toks'. intros H. apply filter_In in H as [_ H]. unfold nt in H. destruct (is_trivia k); [discriminate|reflexivity]. Qed.

Lemma skip'_id j : skip' j = j.
Proof.
  unfold Peg.skip. destruct (skipn j toks') as [|k rest] eqn:E; cbn [skip_from]; [reflexivity|].
  assert (Hin : In k toks').
  { rewrite <- (firstn_skipn j toks'). apply in_or_app. right. rewrite E. left. reflexivity. }
  rewrite (toks'_nt k Hin). reflexivity.
Qed.

Definition leaf_ok (t : tree) : Prop :=
  match t with Leaf i => exists k, kind_at i = Some k /\ nt k = true | Node _ _ => True end.

Lemma ref_func_tm acc : Forall leaf_ok acc ->
  ref_func K_IDENT_REF toks' (map tm acc) = ref_func K_IDENT_REF toks acc.
Proof.
  intros Hok. unfold ref_func. rewrite <- map_rev.
  assert (Hr : Forall leaf_ok (rev acc)) by (apply Forall_forall; intros x Hx; rewrite Forall_forall in Hok; apply Hok, in_rev, Hx).
  destruct (rev acc) as [|[i|k [|c cs]] [|[j|k' cs'] l]]; cbn [map tm]; try reflexivity.
  inversion Hr as [|? ? _ Hr']; subst. inversion Hr' as [|? ? Hj _]; subst. destruct Hj as (kj & Hkj & Hnt).
  rewrite (kind_at_phi j kj Hkj Hnt), Hkj. reflexivity.
Qed.

Lemma aligned_kind s k : aligned s -> kind_at s = Some k -> nt k = true.
Proof.
  intros [Ha|Ha] Hk.
  - pose proof (kind_at_lt toks s k Hk). lia.
  - unfold nontriv_at in Ha. rewrite Hk in Ha. exact Ha.
Qed.

Lemma yield_leaf_ok n p s acc s' ms :
  aligned s -> s <= length toks -> run n p s acc = Ok s' ms -> Forall leaf_ok ms.
Proof.
  intros Ha Hs H. destruct (yield class_ok is_trivia K_IDENT_REF g toks _ _ _ _ _ _ Ha Hs H) as (_ & _ & _ & D).
  apply Forall_forall. intros [i|k cs] Hin; [|exact I].
  assert (Hi : In i (ntriv is_trivia toks s s'))
    by (rewrite <- D; apply in_flat_map; exists (Leaf i); split; [exact Hin|left; reflexivity]).
  apply filter_In in Hi as [_ Hi]. unfold nontriv_at in Hi. cbn [leaf_ok].
  destruct (kind_at i) as [k|]; [|discriminate]. exists k. split; [reflexivity|exact Hi].
Qed.

Lemma trivia_eq : forall n p s acc, aligned s -> s <= length toks -> Forall leaf_ok acc ->
  run' n p (phi s) (map tm acc) = rmap (run n p s acc).
Proof.
  induction n as [|n IH]; intros p s acc Ha Hs Hacc; [reflexivity|].
  assert (IH0 : forall q, run' n q (phi s) [] = rmap (run n q s []))
    by (intros q; exact (IH q s [] Ha Hs (Forall_nil _))).
  (* after a first part that matched, the second starts at a cursor again, and the matches so far have good leaves *)
  assert (after : forall a b s1 m1, run n a s acc = Ok s1 m1 ->
            run' n b (phi s1) (map tm acc ++ map tm m1) = rmap (run n b s1 (acc ++ m1))).
  { intros a b s1 m1 R1. destruct (yield class_ok is_trivia K_IDENT_REF g toks _ _ _ _ _ _ Ha Hs R1) as (_ & B1 & C1 & _).
    rewrite <- map_app. apply IH; [exact C1|exact B1|].
    apply Forall_app. split; [exact Hacc|exact (yield_leaf_ok _ _ _ _ _ _ Ha Hs R1)]. }
  destruct p; cbn [Peg.run].
  - reflexivity.
  - destruct (kind_at s) as [k|] eqn:Ek; [|rewrite (kind_at_none s Ek); reflexivity].
    pose proof (aligned_kind s k Ha Ek) as Hnt. rewrite (kind_at_phi s k Ek Hnt).
    destruct (class_ok c k); [|reflexivity]. cbn [rmap map tm].
    rewrite skip'_id, phi_skip, (phi_S s k Ek), Hnt. reflexivity.
  - rewrite (IH p1 s acc Ha Hs Hacc). destruct (run n p1 s acc) as [s1 m1| |] eqn:R1; cbn [rmap]; try reflexivity.
    rewrite (after p1 p2 s1 m1 R1). destruct (run n p2 s1 (acc ++ m1)); cbn [rmap]; [rewrite map_app|..]; reflexivity.
  - rewrite (IH p1 s acc Ha Hs Hacc). destruct (run n p1 s acc); cbn [rmap]; [reflexivity| |reflexivity].
    exact (IH p2 s acc Ha Hs Hacc).
  - rewrite IH0. destruct (run n p s []); reflexivity.
  - rewrite IH0. destruct (run n p s []) as [s1 [|x [|y l]]| |]; reflexivity.
  - apply IH0.
  - apply IH0.
  - rewrite (IH p1 s acc Ha Hs Hacc). destruct (run n p1 s acc) as [s1 m1| |] eqn:R1; cbn [rmap]; try reflexivity.
    rewrite (after p1 p2 s1 m1 R1). destruct (run n p2 s1 (acc ++ m1)); cbn [rmap]; [rewrite map_app|..]; reflexivity.
  - rewrite (ref_func_tm acc Hacc). destruct (ref_func K_IDENT_REF toks acc); reflexivity.
Qed.

Theorem trivia_free : forall n p s acc, aligned s -> s <= length toks -> Forall leaf_ok acc ->
  run' n p (phi s) (map tm acc) = rmap (run n p s acc) /\
  (forall s' ms, run n p s acc = Ok s' ms -> Forall leaf_ok ms).
Proof.
  intros n p s acc Ha Hs Hacc. split; [exact (trivia_eq n p s acc Ha Hs Hacc)|].
  intros s' ms H. exact (yield_leaf_ok n p s acc s' ms Ha Hs H).
Qed.
End Trivia.

From Oal Require Import Grammar GrammarProofs.

Definition strip_trivia (toks : list N) : list N := toks' Grammar.is_trivia toks.

Theorem oal_parse_ignores_trivia n toks :
  parse_pure n (strip_trivia toks) = rmap Grammar.is_trivia toks (parse_pure n toks).
Proof.
  unfold parse_pure, strip_trivia.
  destruct (skip_spec Grammar.is_trivia toks 0 ltac:(lia)) as (_ & B & C & _).
  rewrite <- trivia_eq by (assumption || constructor).
  cbn [map]. rewrite skip'_id, phi_skip. reflexivity.
Qed.

(** two texts whose tokens differ only by spaces and comments parse alike *)
Corollary oal_parse_same_up_to_trivia n toks1 toks2 :
  strip_trivia toks1 = strip_trivia toks2 ->
  rmap Grammar.is_trivia toks1 (parse_pure n toks1) = rmap Grammar.is_trivia toks2 (parse_pure n toks2).
Proof. intros H. rewrite <- !oal_parse_ignores_trivia, H. reflexivity. Qed.

Lemma rmap_fuel toks r : rmap Grammar.is_trivia toks r = Fuel -> r = Fuel.
Proof. destruct r; cbn [rmap]; intros H; try discriminate; reflexivity. Qed.

(** the memoising parser too: whenever it answers on both token lists, the answers correspond *)
Corollary oal_parse_memo_ignores_trivia n1 n2 toks r1 st1 r2 st2 :
  parse_memo n1 toks = (r1, st1) -> parse_memo n2 (strip_trivia toks) = (r2, st2) ->
  r1 <> Fuel -> r2 <> Fuel -> r2 = rmap Grammar.is_trivia toks r1.
Proof.
  intros H1 H2 Hr1 Hr2.
  destruct (oal_memo_transparent _ _ _ _ H1 Hr1) as [m1 E1]. destruct (oal_memo_transparent _ _ _ _ H2 Hr2) as [m2 E2].
  pose proof (oal_parse_stable m1 (Nat.max m1 m2) toks r1 E1 Hr1 (Nat.le_max_l _ _)) as S1.
  pose proof (oal_parse_stable m2 (Nat.max m1 m2) (strip_trivia toks) r2 E2 Hr2 (Nat.le_max_r _ _)) as S2.
  rewrite oal_parse_ignores_trivia, S1 in S2. symmetry. exact S2.
Qed.

(** non-vacuity: [let a = num;] with and without blanks and a comment *)
Example ex_trivia :
  let t1 := [20; 0; 26; 0; 48; 0; 5; 40; 1]%N in     (* let _ a _ = _ num ; // c *)
  let t2 := [20; 26; 48; 5; 40]%N in
  strip_trivia t1 = t2 /\ t1 <> t2 /\
  exists s ms, parse_pure 200 t2 = Ok s ms /\ rmap Grammar.is_trivia t1 (parse_pure 200 t1) = Ok s ms /\ s = 5%nat.
Proof. cbv zeta. split; [reflexivity|]. split; [discriminate|]. eexists _, _. split; [vm_compute; reflexivity|]. split; vm_compute; reflexivity. Qed.
