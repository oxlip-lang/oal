(** Proofs about Model/Loader.v (property C10). The loop that discovers the import graph keeps
    an invariant [Inv] (with the imports of the module being visited that are still [pend]ing);
    [load_cases] lists the ways [load] can end ([outcome]), each with what is known of the final
    state, and the theorems are read off it. Everything above [Htopo] holds whatever the sorter
    does; only what follows it uses the sorter's contract. *)
From Coq Require Import Lia Permutation.
From Oal Require Import Loader.

Lemma mem_spec x l : reflect (In x l) (mem x l).
Proof.
  apply iff_reflect. unfold mem. rewrite existsb_exists. split.
  - intros H. exists x. split; [exact H|apply N.eqb_refl].
  - intros [y [Hin Hy]]. apply N.eqb_eq in Hy. subst. exact Hin.
Qed.

Fixpoint loads (tr : list event) : list N :=
  match tr with [] => [] | ELoad l :: tr' => l :: loads tr' | _ :: tr' => loads tr' end.
Fixpoint parses (tr : list event) : list N :=
  match tr with [] => [] | EParse l :: tr' => l :: parses tr' | _ :: tr' => parses tr' end.
Fixpoint compiles (tr : list event) : list N :=
  match tr with [] => [] | ECompile l :: tr' => l :: compiles tr' | _ :: tr' => compiles tr' end.

Section Proofs.
Variable fs : N -> file.
Variable compile_ok : N -> bool.
Variable topo : list N -> list (N * N) -> list N + N.

Definition imports_of (n : N) : list N := match fs n with Good is => is | _ => [] end.
Definition good (n : N) : Prop := exists is, fs n = Good is.

Inductive reachable (base : N) : N -> Prop :=
| reach_base : reachable base base
| reach_step n t : reachable base n -> In t (imports_of n) -> reachable base t.

(** paths of length >= 1 along edges (imported, importer) *)
Inductive path (es : list (N * N)) : N -> N -> Prop :=
| path_one a b : In (a, b) es -> path es a b
| path_cons a b c : In (a, b) es -> path es b c -> path es a c.

Lemma path_incl es es' : (forall x y, In (x, y) es -> In (x, y) es') ->
  forall a b, path es a b -> path es' a b.
Proof.
  intros Hsub a b Hp. induction Hp as [x y Hxy|x y z Hxy _ IH]; [apply path_one|eapply path_cons]; eauto.
Qed.

Definition before (a b : N) (l : list N) : Prop :=
  exists l1 l2 l3, l = l1 ++ a :: l2 ++ b :: l3.

(** contract of petgraph::algo::toposort, checked by the harness on every graph it sees *)
Definition topo_spec : Prop :=
  forall ns es, NoDup ns -> (forall a b, In (a, b) es -> In a ns /\ In b ns) ->
  match topo ns es with
  | inl order => Permutation order ns /\ (forall a b, In (a, b) es -> before a b order)
                 /\ (forall a, ~ path es a a)
  | inr l => In l ns /\ path es l l
  end.

Lemma validate_trace is : forall tr r tr',
  validate fs is tr = (r, tr') ->
  loads tr' = loads tr /\ parses tr' = parses tr /\ compiles tr' = compiles tr.
Proof.
  induction is as [|t is IH]; intros tr r tr' H; cbn [validate] in H.
  - inversion H; subst. auto.
  - destruct (fs t); [inversion H; subst; cbn; auto| |]; apply IH in H; cbn in H; exact H.
Qed.

Lemma validate_none is : forall tr tr',
  validate fs is tr = (None, tr') -> forall t, In t is -> fs t <> Missing.
Proof.
  induction is as [|x is IH]; intros tr tr' H t Hin; [destruct Hin|].
  cbn [validate] in H. destruct (fs x) eqn:E; [discriminate| |];
    (destruct Hin as [->|Hin]; [congruence|eapply IH; eassumption]).
Qed.

Lemma validate_some is : forall tr tr' t,
  validate fs is tr = (Some t, tr') -> In t is /\ fs t = Missing.
Proof.
  induction is as [|x is IH]; intros tr tr' t H; cbn [validate] in H; [discriminate|].
  destruct (fs x) eqn:E; [inversion H; subst; split; [left; reflexivity|exact E]|..];
    (destruct (IH _ _ _ H); split; [right|]; assumption).
Qed.

(** every error names a defect of the reachable part of the import graph *)
Definition defect (base : N) (e : lerr) : Prop :=
  match e with
  | ErrInvalidModule t n => fs t = Missing /\ reachable base n /\ In t (imports_of n)
  | ErrParse t => fs t = Bad /\ reachable base t
  | ErrLoad t => fs t = Missing /\ (t = base \/ exists n, reachable base n /\ In t (imports_of n))
  | ErrCycle l => reachable base l /\
      exists es, (forall a b, In (a, b) es -> reachable base b /\ In a (imports_of b)) /\ path es l l
  | ErrCompile l => reachable base l /\ compile_ok l = false
  end.

(** an error raised while the graph is still being discovered *)
Definition early (base : N) (e : lerr) (tr : list event) : Prop :=
  compiles tr = [] /\ defect base e.

(** [pend] lists the import edges (imported, importer) of the module being visited that
    have not been followed yet; between two iterations of the loop it is empty *)
Record Inv (base : N) (pend : list (N * N)) (st : lstate) : Prop := {
  i_nodup : NoDup (nodes st);
  i_qincl : incl (queue st) (nodes st);
  i_good : forall n, In n (nodes st) -> good n;
  (* a module that has left the work list has had its imports followed, each to a node
     and an edge; this is what makes the final graph closed under imports *)
  i_done : forall n, In n (nodes st) -> ~ In n (queue st) -> forall t, In t (imports_of n) ->
           In (t, n) pend \/ (In t (nodes st) /\ In (t, n) (edges st));
  i_edges : forall t n, In (t, n) (edges st) -> In n (nodes st) /\ In t (nodes st) /\ In t (imports_of n);
  i_reach : forall n, In n (nodes st) -> reachable base n;
  i_loads : loads (trace st) = nodes st;
  i_parses : parses (trace st) = nodes st;
  i_compiles : compiles (trace st) = [];
  i_base : In base (nodes st)
}.

Lemma Inv_init base is : fs base = Good is ->
  Inv base [] (mk_lstate [base] [] [base] [EParse base; ELoad base]).
Proof.
  intros H. constructor; cbn [nodes queue edges trace loads parses compiles];
    auto using incl_refl, NoDup_cons, NoDup_nil, in_nil, in_eq.
  - intros n [<-|[]]. exists is. exact H.
  - intros n [<-|[]] Hn. destruct Hn. left. reflexivity.
  - intros t n [].
  - intros n [<-|[]]. constructor.
Qed.

(** a module leaves the work list: all its imports become pending *)
Lemma Inv_pop base st n q tr : Inv base [] st -> queue st = n :: q ->
  loads tr = loads (trace st) /\ parses tr = parses (trace st) /\ compiles tr = compiles (trace st) ->
  Inv base (map (fun t => (t, n)) (imports_of n)) (mk_lstate (nodes st) (edges st) q tr).
Proof.
  intros I Hq (Vl & Vp & Vc). destruct I. rewrite Hq in *.
  constructor; cbn [nodes queue edges trace]; rewrite ?Vl, ?Vp, ?Vc; try assumption.
  - intros x Hx. apply i_qincl0. right. exact Hx.
  - intros x Hx Hnq t Ht. destruct (N.eq_dec x n) as [->|Hne]; [left; apply (in_map (fun t => (t, n))), Ht|].
    destruct (i_done0 x Hx) with (t := t) as [[]|H]; [|exact Ht|right; exact H].
    intros [C|C]; [congruence|exact (Hnq C)].
Qed.

(** the pending import [t] of [n], a known module, is followed *)
Lemma Inv_known base t n pend ns es q tr :
  Inv base ((t, n) :: pend) (mk_lstate ns es q tr) -> In t ns -> In n ns -> In t (imports_of n) ->
  Inv base pend (mk_lstate ns ((t, n) :: es) q tr).
Proof.
  intros I Ht Hn Hi. destruct I. cbn [nodes queue edges trace] in *.
  constructor; cbn [nodes queue edges trace]; try assumption.
  - intros x Hx Hq u Hu. destruct (i_done0 x Hx Hq u Hu) as [[E|H]|[A B]]; [|auto|auto using in_cons].
    inversion E; subst. auto using in_eq.
  - intros u x [E|H]; [inversion E; subst; auto|apply i_edges0, H].
Qed.

(** a new module is loaded, parsed and queued *)
Lemma Inv_node base t pend ns es q tr :
  Inv base pend (mk_lstate ns es q tr) -> ~ In t ns -> good t -> reachable base t ->
  Inv base pend (mk_lstate (t :: ns) es (t :: q) (EParse t :: ELoad t :: tr)).
Proof.
  intros I Ht Hg Hr. destruct I. cbn [nodes queue edges trace] in *.
  constructor; cbn [nodes queue edges trace loads parses compiles]; auto using NoDup_cons, in_cons, f_equal.
  - apply incl_cons; [left; reflexivity|apply incl_tl, i_qincl0].
  - intros x [<-|Hx]; auto.
  - intros x [<-|Hx] Hq u Hu; [destruct Hq; left; reflexivity|].
    destruct (i_done0 x Hx (fun C => Hq (or_intror C)) u Hu) as [H|[A B]]; auto using in_cons.
  - intros u x H. destruct (i_edges0 u x H) as (A & B & C). auto using in_cons.
  - intros x [<-|Hx]; auto.
Qed.

(** every pending import is followed, or the first bad one is an error; nodes and work
    list grow by the same modules *)
Lemma visit_inv base n : forall is st,
  In n (nodes st) -> incl is (imports_of n) -> Inv base (map (fun t => (t, n)) is) st ->
  match visit fs n is st with
  | inl st' => Inv base [] st'
               /\ length (nodes st') + length (queue st) = length (nodes st) + length (queue st')
  | inr (e, tr) => early base e tr
  end.
Proof.
  induction is as [|t is IH]; intros [ns es q tr] Hn His I; cbn [visit map nodes queue edges trace] in *; [auto|].
  assert (Ht : In t (imports_of n)) by (apply His; left; reflexivity).
  assert (His' : incl is (imports_of n)) by (intros x Hx; apply His; right; exact Hx).
  destruct (mem_spec t ns) as [Em|Em].
  - apply IH; [exact Hn|exact His'|apply Inv_known; assumption].
  - pose proof (i_reach _ _ _ I n Hn) as Rn.
    pose proof (i_compiles _ _ _ I) as Hc. cbn [trace] in Hc. destruct (fs t) as [| |tis] eqn:Et.
    + split; [exact Hc|]. split; [exact Et|]. right. exists n. split; assumption.
    + split; [exact Hc|]. split; [exact Et|exact (reach_step _ _ _ Rn Ht)].
    + assert (I2 : Inv base (map (fun t => (t, n)) is)
                     (mk_lstate (t :: ns) ((t, n) :: es) (t :: q) (EParse t :: ELoad t :: tr))).
      { apply Inv_known; [|left; reflexivity|right; exact Hn|exact Ht].
        apply Inv_node; [exact I|exact Em|exists tis; exact Et|exact (reach_step _ _ _ Rn Ht)]. }
      apply IH in I2; [|right; exact Hn|exact His'].
      destruct (visit fs n is _) as [st'|[e tr']]; [|exact I2].
      cbn [nodes queue length] in I2. split; [apply I2|lia].
Qed.

Lemma reach_univ base univ :
  In base univ -> (forall n, In n univ -> incl (imports_of n) univ) ->
  forall n, reachable base n -> In n univ.
Proof. intros Hb Hclosed n R. induction R; [exact Hb|eapply Hclosed; eassumption]. Qed.

(** the loop runs out of fuel only if the fuel is short of the modules of every finite
    import-closed universe: an iteration takes one module off the work list, and [visit] adds
    the same modules to the nodes and to the work list ([visit_inv]), so
    [|univ| + |queue| - |nodes|] goes down by one, and it is at least [|queue|] because the
    nodes are distinct members of [univ] *)
Lemma loop_spec base : forall fuel st, Inv base [] st ->
  match loop fs fuel st with
  | Some (inl st') => Inv base [] st' /\ queue st' = []
  | Some (inr (e, tr)) => early base e tr
  | None => forall univ, In base univ -> (forall n, In n univ -> incl (imports_of n) univ) ->
            fuel + length (nodes st) <= length univ + length (queue st)
  end.
Proof.
  induction fuel as [|fuel IH]; intros st I; cbn [loop].
  - intros univ Hb Hclosed.
    assert (Hincl : incl (nodes st) univ).
    { intros x Hx. eapply reach_univ; [exact Hb|exact Hclosed|apply (i_reach _ _ _ I), Hx]. }
    pose proof (NoDup_incl_length (i_nodup _ _ _ I) Hincl). lia.
  - destruct (queue st) as [|n q] eqn:Hq; [split; assumption|].
    assert (Hnn : In n (nodes st)). { apply (i_qincl _ _ _ I). rewrite Hq. left. reflexivity. }
    destruct (i_good _ _ _ I n Hnn) as [is Hn]. rewrite Hn.
    assert (Himp : imports_of n = is) by (unfold imports_of; rewrite Hn; reflexivity). subst is.
    destruct (validate fs (imports_of n) (trace st)) as [r tr] eqn:Hv.
    pose proof (validate_trace _ _ _ _ Hv) as V. destruct r as [t|].
    + destruct (validate_some _ _ _ _ Hv) as [Hin Hm]. unfold early. destruct V as (_ & _ & ->).
      cbn. repeat split; auto using (i_compiles _ _ _ I), (i_reach _ _ _ I).
    + pose proof (visit_inv base n _ (mk_lstate (nodes st) (edges st) q tr) Hnn (incl_refl _)
                   (Inv_pop base st n q tr I Hq V)) as S.
      cbn [nodes queue] in S. destruct (visit fs n _ _) as [st1|[e tr1]]; [|exact S].
      destruct S as [I1 Hlen]. specialize (IH st1 I1).
      destruct (loop fs fuel st1) as [[st'|[e tr']]|]; try exact IH.
      intros univ Hb Hclosed. specialize (IH univ Hb Hclosed). cbn [length]. lia.
Qed.

Lemma final_graph base st : Inv base [] st -> queue st = [] ->
  (forall l, In l (nodes st) <-> reachable base l) /\
  (forall n t, reachable base n -> In t (imports_of n) -> In (t, n) (rev (edges st))).
Proof.
  intros I Hq.
  assert (D : forall n t, In n (nodes st) -> In t (imports_of n) -> In t (nodes st) /\ In (t, n) (edges st)).
  { intros n t Hn Ht. destruct (i_done _ _ _ I n Hn) with (t := t) as [[]|H]; [rewrite Hq; intros []|exact Ht|exact H]. }
  assert (C : forall l, reachable base l -> In l (nodes st)).
  { intros l R. induction R as [|n t R IH Ht]; [apply (i_base _ _ _ I)|apply (D n t IH Ht)]. }
  split; [intros l; split; [apply (i_reach _ _ _ I)|apply C]|].
  intros n t R Ht. rewrite <- in_rev. apply (D n t (C n R) Ht).
Qed.

Lemma compile_all_ok order : forall tr tr',
  compile_all compile_ok order tr = (None, tr') ->
  compiles tr' = rev order ++ compiles tr /\ loads tr' = loads tr /\ parses tr' = parses tr
  /\ forall l, In l order -> compile_ok l = true.
Proof.
  induction order as [|x order IH]; intros tr tr' H; cbn [compile_all] in H.
  - inversion H; subst. repeat split. intros l [].
  - destruct (compile_ok x) eqn:E; [|discriminate]. apply IH in H. cbn in H. destruct H as (A & B & C & D).
    cbn [rev]. rewrite <- app_assoc. repeat split; try assumption.
    intros l [<-|Hin]; [exact E|exact (D l Hin)].
Qed.

Lemma compile_all_err order : forall tr e tr',
  compile_all compile_ok order tr = (Some e, tr') -> exists l, e = ErrCompile l /\ In l order /\ compile_ok l = false.
Proof.
  induction order as [|x order IH]; intros tr e tr' H; cbn [compile_all] in H; [discriminate|].
  destruct (compile_ok x) eqn:E.
  - destruct (IH _ _ _ H) as (l & A & B & C). exists l. auto using in_cons.
  - inversion H; subst. exists x. split; [reflexivity|]. split; [left; reflexivity|exact E].
Qed.

Inductive outcome (fuel : nat) (base : N) : lres -> Prop :=
| o_fuel : (forall univ, In base univ -> (forall n, In n univ -> incl (imports_of n) univ) ->
            fuel <= length univ) ->
    outcome fuel base LFuel
| o_early e tr : early base e tr -> outcome fuel base (LErr e tr)
| o_cycle st l : Inv base [] st ->
    topo (rev (nodes st)) (rev (edges st)) = inr l ->
    outcome fuel base (LErr (ErrCycle l) (trace st))
| o_compile st order l tr : Inv base [] st ->
    topo (rev (nodes st)) (rev (edges st)) = inl order ->
    In l order -> compile_ok l = false ->
    outcome fuel base (LErr (ErrCompile l) tr)
| o_ok st order tr : Inv base [] st -> queue st = [] ->
    topo (rev (nodes st)) (rev (edges st)) = inl order ->
    compile_all compile_ok order (trace st) = (None, tr) ->
    outcome fuel base (LOk (nodes st) tr).

Lemma load_cases fuel base r : load fs compile_ok topo fuel base = r -> outcome fuel base r.
Proof.
  intros <-. unfold load. destruct (fs base) as [| |bis] eqn:Hb.
  - apply o_early. unfold early. cbn. auto.
  - apply o_early. unfold early. cbn. auto using reach_base.
  - pose proof (loop_spec base fuel _ (Inv_init base bis Hb)) as L.
    destruct (loop fs fuel _) as [[st|[e tr]]|]; [|apply o_early, L|apply o_fuel].
    + destruct L as [I Hq]. destruct (topo _ _) as [order|l] eqn:Ht; [|apply o_cycle; assumption].
      destruct (compile_all compile_ok order (trace st)) as [[e|] tr] eqn:Hc; [|eapply o_ok; eassumption].
      destruct (compile_all_err _ _ _ _ Hc) as (l & -> & Hin & Hf). eapply o_compile; eassumption.
    + intros univ Hu Hclosed. specialize (L univ Hu Hclosed). cbn [nodes queue length] in L. lia.
Qed.

Theorem load_missing_spec fuel base t n tr :
  load fs compile_ok topo fuel base = LErr (ErrInvalidModule t n) tr ->
  fs t = Missing /\ reachable base n /\ In t (imports_of n) /\ compiles tr = [].
Proof.
  intros H. apply load_cases in H. inversion H as [|? ? E| | |]; subst.
  destruct E as (Hc & A & B & C). auto.
Qed.

Theorem load_err_compiles fuel base e tr :
  load fs compile_ok topo fuel base = LErr e tr -> (forall l, e <> ErrCompile l) -> compiles tr = [].
Proof.
  intros H Hne. apply load_cases in H. inversion H as [|? ? E|st l I|st order l|]; subst.
  - apply E.
  - apply (i_compiles _ _ _ I).
  - destruct (Hne l). reflexivity.
Qed.

(** [S (length univ)] is enough: one unit for each module and one to see the work list
    empty; the statement has one to spare *)
Theorem load_terminates base univ :
  In base univ -> (forall n, In n univ -> incl (imports_of n) univ) ->
  load fs compile_ok topo (S (S (length univ))) base <> LFuel.
Proof.
  intros Hb Hclosed H. apply load_cases in H. inversion H as [F| | | |].
  specialize (F univ Hb Hclosed). lia.
Qed.

Hypothesis Htopo : topo_spec.

Lemma topo_inv base st r : Inv base [] st -> topo (rev (nodes st)) (rev (edges st)) = r ->
  match r with
  | inl order => Permutation order (rev (nodes st))
                 /\ (forall a b, In (a, b) (rev (edges st)) -> before a b order)
                 /\ (forall a, ~ path (rev (edges st)) a a)
  | inr l => In l (rev (nodes st)) /\ path (rev (edges st)) l l
  end.
Proof.
  intros I <-. apply Htopo; [apply NoDup_rev, (i_nodup _ _ _ I)|].
  intros a b H. rewrite <- in_rev in H. destruct (i_edges _ _ _ I a b H) as (A & B & _).
  split; apply -> in_rev; assumption.
Qed.

Lemma before_rev_app a b order l :
  before a b order -> before a b (rev (rev order ++ l) ) \/ True.
Proof. auto. Qed.

Theorem load_ok_spec fuel base mods tr :
  load fs compile_ok topo fuel base = LOk mods tr ->
  (* every reachable module is loaded and parsed exactly once, and nothing else is *)
  NoDup (loads tr) /\ (forall l, In l (loads tr) <-> reachable base l) /\
  parses tr = loads tr /\
  (* compiled exactly once, after everything it imports *)
  NoDup (compiles tr) /\ (forall l, In l (compiles tr) <-> reachable base l) /\
  (forall n t, reachable base n -> In t (imports_of n) -> before t n (rev (compiles tr))) /\
  (* all reachable modules parse, and the import graph has no cycle *)
  (forall l, reachable base l -> good l) /\
  (forall es, (forall a b, In (a, b) es <-> (reachable base b /\ In a (imports_of b))) -> forall a, ~ path es a a).
Proof.
  intros H. apply load_cases in H. inversion H as [| | | |st order ? I Hq Ht Hc]; subst. clear H.
  destruct (compile_all_ok _ _ _ Hc) as (Cc & Cl & Cp & _).
  destruct (topo_inv base st _ I Ht) as (Hperm & Hbefore & Hacyc).
  destruct (final_graph base st I Hq) as [Hnodes Hdone].
  rewrite Cp, Cl, Cc, (i_parses _ _ _ I), (i_loads _ _ _ I), (i_compiles _ _ _ I), app_nil_r, rev_involutive.
  repeat apply conj.
  - apply (i_nodup _ _ _ I).
  - exact Hnodes.
  - reflexivity.
  - apply NoDup_rev. apply (Permutation_NoDup (l := rev (nodes st))); [symmetry; exact Hperm|].
    apply NoDup_rev. apply (i_nodup _ _ _ I).
  - intros l. rewrite <- in_rev, <- Hnodes, (in_rev (nodes st)).
    split; apply Permutation_in; [exact Hperm|symmetry; exact Hperm].
  - intros n t Rn Hin. apply Hbefore. apply Hdone; assumption.
  - intros l R. apply (i_good _ _ _ I). apply Hnodes. exact R.
  - intros es Hes a Hp. apply (Hacyc a). apply (path_incl es); [|exact Hp].
    intros x y Hxy. apply Hes in Hxy. apply Hdone; apply Hxy.
Qed.

Theorem load_ok_compiled fuel base mods tr :
  load fs compile_ok topo fuel base = LOk mods tr -> forall l, In l (compiles tr) -> compile_ok l = true.
Proof.
  intros H l Hin. apply load_cases in H. inversion H as [| | | |st order ? I Hq Ht Hc]; subst.
  destruct (compile_all_ok _ _ _ Hc) as (Cc & _ & _ & Hok).
  rewrite Cc, (i_compiles _ _ _ I), app_nil_r, <- in_rev in Hin. exact (Hok l Hin).
Qed.

Theorem load_err_spec fuel base e tr :
  load fs compile_ok topo fuel base = LErr e tr -> defect base e.
Proof.
  intros H. apply load_cases in H.
  inversion H as [|? ? E|st l I Ht|st order l ? I Ht Hin Hf|]; subst.
  - apply E.
  - destruct (topo_inv base st _ I Ht) as [Hl Hp].
    split; [apply (i_reach _ _ _ I); rewrite in_rev; exact Hl|].
    exists (rev (edges st)). split; [|exact Hp].
    intros a b Hab. rewrite <- in_rev in Hab. destruct (i_edges _ _ _ I a b Hab) as (A & _ & C).
    split; [apply (i_reach _ _ _ I); exact A|exact C].
  - destruct (topo_inv base st _ I Ht) as (Hperm & _).
    split; [|exact Hf]. apply (i_reach _ _ _ I). rewrite in_rev. eapply Permutation_in; eassumption.
Qed.

(** a cycle error names a module on an import cycle (a self import included) among
    the reachable modules, and nothing has been compiled; that a cyclic graph cannot
    load is the last clause of [load_ok_spec] *)
Theorem load_cycle_spec fuel base l tr :
  load fs compile_ok topo fuel base = LErr (ErrCycle l) tr ->
  reachable base l /\ compiles tr = [] /\
  exists es, (forall a b, In (a, b) es -> reachable base b /\ In a (imports_of b)) /\ path es l l.
Proof.
  intros H. destruct (load_err_spec _ _ _ _ H) as [R P].
  split; [exact R|]. split; [|exact P]. apply (load_err_compiles _ _ _ _ H). discriminate.
Qed.

Theorem load_ok_no_defect fuel base mods tr e :
  load fs compile_ok topo fuel base = LOk mods tr -> defect base e -> False.
Proof.
  intros H D. apply load_cases in H. inversion H as [| | | |st order ? I Hq Ht Hc]; subst. clear H.
  destruct (final_graph base st I Hq) as [Hnodes Hdone].
  destruct (topo_inv base st _ I Ht) as (Hperm & _ & Hacyc).
  assert (Hfile : forall t, reachable base t -> fs t = Missing \/ fs t = Bad -> False).
  { intros t R. destruct (i_good _ _ _ I t (proj2 (Hnodes t) R)) as [is ->]. intros [E|E]; discriminate E. }
  destruct e as [t|t|t n|l|l]; cbn in D.
  - destruct D as [Hm [->|(n & R & Hin)]]; eauto using reach_base, reach_step.
  - destruct D as [Hb R]. eauto.
  - destruct D as (Hm & R & Hin). eauto using reach_step.
  - destruct D as (_ & es & Hes & Hp). apply (Hacyc l), (path_incl es); [|exact Hp].
    intros x y Hxy. apply Hdone; apply (Hes x y Hxy).
  - destruct D as [R Hf]. destruct (compile_all_ok _ _ _ Hc) as (_ & _ & _ & Hok).
    rewrite Hok in Hf; [discriminate|]. apply (Permutation_in _ (Permutation_sym Hperm)).
    rewrite <- in_rev. apply Hnodes, R.
Qed.

End Proofs.

(** the verdict does not depend on the order of use statements *)
Definition same_files (fs fs' : N -> file) : Prop :=
  forall n, match fs n, fs' n with
            | Good a, Good b => forall t, In t a <-> In t b
            | Missing, Missing | Bad, Bad => True
            | _, _ => False
            end.

Lemma same_imports fs fs' : same_files fs fs' -> forall n t, In t (imports_of fs n) -> In t (imports_of fs' n).
Proof.
  intros S n t. unfold imports_of. specialize (S n). destruct (fs n), (fs' n); try contradiction; try (intros []).
  apply S.
Qed.

Lemma same_files_sym fs fs' : same_files fs fs' -> same_files fs' fs.
Proof.
  intros S n. specialize (S n). destruct (fs n), (fs' n); auto. intros t. symmetry. apply S.
Qed.

Lemma same_reachable fs fs' base : same_files fs fs' -> forall n, reachable fs base n -> reachable fs' base n.
Proof.
  intros S n R. induction R as [|n t R IH Ht]; [constructor|].
  eapply reach_step; [exact IH|]. eapply same_imports; eassumption.
Qed.

Lemma same_defect fs fs' compile_ok base e :
  same_files fs fs' -> defect fs compile_ok base e -> defect fs' compile_ok base e.
Proof.
  intros S. pose proof (same_reachable _ _ base S) as R. pose proof (same_imports _ _ S) as Im.
  assert (M : forall t, fs t = Missing -> fs' t = Missing).
  { intros t Ht. specialize (S t). rewrite Ht in S. now destruct (fs' t). }
  assert (B : forall t, fs t = Bad -> fs' t = Bad).
  { intros t Ht. specialize (S t). rewrite Ht in S. now destruct (fs' t). }
  destruct e as [t|t|t n|l|l]; cbn.
  - intros [Hm H]. split; [auto|]. destruct H as [->|(n & Rn & Hin)]; [left; reflexivity|right; exists n; auto].
  - intros [Hb Rt]. auto.
  - intros (Hm & Rn & Hin). auto.
  - intros (Rl & es & Hes & Hp). split; [auto|]. exists es. split; [|exact Hp].
    intros a b Hab. destruct (Hes a b Hab). auto.
  - intros [Rl Hf]. auto.
Qed.

Theorem load_use_order fs fs' compile_ok topo topo' fuel fuel' base mods tr e tr' :
  topo_spec topo -> topo_spec topo' -> same_files fs fs' ->
  load fs compile_ok topo fuel base = LOk mods tr ->
  load fs' compile_ok topo' fuel' base = LErr e tr' -> False.
Proof.
  intros T T' S Hok Herr. apply (load_ok_no_defect fs compile_ok topo T _ _ _ _ e Hok).
  apply (same_defect fs' fs); [apply same_files_sym, S|].
  exact (load_err_spec fs' compile_ok topo' T' _ _ _ _ Herr).
Qed.

(** equivalent spellings of a relative path give the same locator *)
Lemma join_app dir a b : join dir (a ++ b) = join (join dir a) b.
Proof. unfold join. apply fold_left_app. Qed.

Theorem join_dot dir a b : join dir (a ++ Dot :: b) = join dir (a ++ b).
Proof. rewrite !join_app. reflexivity. Qed.

Theorem join_name_up dir a d b : join dir (a ++ Name d :: Up :: b) = join dir (a ++ b).
Proof. rewrite !join_app. reflexivity. Qed.
