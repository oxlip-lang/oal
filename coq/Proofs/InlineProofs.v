(** Inlining a plain declaration is free (C05, evaluator stage): replacing every use of a
    declaration [let x = e0;] (no parameters, no annotations of its own, not an @reference, not
    flagged recursive, not mentioning itself) by [e0] itself, in a whole program and in the
    evaluated expression, does not change the result of the evaluator model: same value, same
    reference table, same error or panic, for the code's semantics and for the lexical one.
    Read from right to left this is naming a sub-expression with let. Hence a program and the
    program with the declaration inlined evaluate alike whenever both evaluations end, and the
    one with the declaration ends whenever the inlined one does, with twice the fuel plus one.
    The one fact about annotations this rests on: extending the empty annotation by [a] gives
    [a] back when the keys of [a] are distinct, and every annotation the evaluator passes down
    has distinct keys (it starts empty and is only ever extended). *)
From Oal Require Import Eval EvalBasics FuelProofs.
From Coq Require Import Lia.
Local Open Scope N_scope.

Definition nd (a : ymap) : Prop := NoDup (map fst a).

Lemma ext_upd_absent k v a : ~ In k (map fst a) -> ext_upd k v a = a ++ [(k, v)].
Proof.
  induction a as [|[k' pv] a IH]; intros H; cbn [ext_upd app]; [reflexivity|].
  destruct (N.eqb_spec k k') as [->|Hne]; [exfalso; apply H; left; reflexivity|].
  rewrite IH; [reflexivity|]. intros Hin. apply H. right. exact Hin.
Qed.

Lemma ext_upd_keys k v a : map fst (ext_upd k v a) = map fst (im_insert N.eqb k v a).
Proof.
  induction a as [|[k' pv] a IH]; cbn [ext_upd im_insert]; [reflexivity|].
  destruct (N.eqb k k'); cbn [map fst]; [reflexivity|f_equal; exact IH].
Qed.

Lemma ext_upd_nd k v a : nd a -> nd (ext_upd k v a).
Proof. unfold nd. rewrite ext_upd_keys. apply (im_insert_nodup N.eqb_eq). Qed.

Lemma extend_nd a b : nd a -> nd (extend a b).
Proof. revert a. induction b as [|[k v] b IH]; intros a H; cbn [extend]; [exact H|]. apply IH, ext_upd_nd, H. Qed.

Lemma extend_app b : forall a, nd (a ++ b) -> extend a b = a ++ b.
Proof.
  induction b as [|[k v] b IH]; intros a H; cbn [extend]; [rewrite app_nil_r; reflexivity|].
  assert (Hk : ~ In k (map fst a)).
  { unfold nd in H. rewrite map_app in H. cbn [map fst] in H. intros Hin.
    apply NoDup_remove_2 in H. apply H. apply in_or_app. left. exact Hin. }
  rewrite ext_upd_absent by exact Hk. rewrite IH; rewrite <- app_assoc; [reflexivity|exact H].
Qed.

Lemma extend_nil a : nd a -> extend [] a = a.
Proof. intros H. apply (extend_app a []). exact H. Qed.

Lemma nd_nil : nd [].
Proof. constructor. Qed.

Section Inline.
  Variables m0 k0 : N.        (* the declaration [k0] of module [m0] ... *)
  Variable e0u : expr.        (* ... and its right-hand side, itself inlined *)

  Fixpoint unname (e : expr) : expr :=
    match e with
    | ETerm anns e' => ETerm anns (unname e')
    | ESub e' => ESub (unname e')
    | EPrim p => EPrim p
    | ELitStr x => ELitStr x
    | ELitNum x => ELitNum x
    | ELitStat x => ELitStat x
    | EDecl m i => if N.eqb m m0 && N.eqb i k0 then e0u else EDecl m i
    | EConcat => EConcat
    | EBind x => EBind x
    | EApp f args => EApp (unname f) (map unname args)
    | ERec m i x e' => ERec m i x (unname e')
    | EObj ps => EObj (map unname ps)
    | EProp name req e' => EProp name req (unname e')
    | EUnary b e' => EUnary b (unname e')
    | EArr e' => EArr (unname e')
    | EOp op es => EOp op (map unname es)
    | ECont body metas =>
        ECont (option_map unname body) (map (fun ke => match ke with (k, e') => (k, unname e') end) metas)
    | EXfer ms dom rg prm => EXfer ms (option_map unname dom) (unname rg) (option_map unname prm)
    | EUri segs prm =>
        EUri (map (fun sg => match sg with inl x => inl x | inr e' => inr (unname e') end) segs) (option_map unname prm)
    | ERel u xs => ERel (unname u) (map unname xs)
    end.

  Definition unname_decl (d : decl) : decl := mk_decl (d_ref d) (d_rec d) (d_anns d) (d_params d) (unname (d_rhs d)).
  Definition unname_prog (P : prog) : prog := map (map unname_decl) P.

  Lemma get_decl_unname P m i : get_decl (unname_prog P) m i = option_map (dmap unname) (get_decl P m i).
  Proof. exact (get_decl_map unname P m i). Qed.

  (** 1 at a use of the declaration, which costs the program that has it one step more *)
  Definition at_use (e : expr) : nat := match e with EDecl m i => if N.eqb m m0 && N.eqb i k0 then 1 else 0 | _ => 0 end.

  Lemma unname_emap e : at_use e = 0%nat -> unname e = emap unname e.
  Proof. destruct e; try reflexivity. cbn [at_use unname emap]. destruct (N.eqb m m0 && N.eqb i k0); [discriminate|reflexivity]. Qed.

  Variable lx : bool.
  Variable P : prog.
  Variable d0 : decl.
  Hypothesis Hd0 : get_decl P m0 k0 = Some d0.
  Hypothesis Hplain : d_ref d0 = None /\ d_rec d0 = false /\ d_anns d0 = [] /\ d_params d0 = [].
  Hypothesis He0u : unname (d_rhs d0) = e0u.
  Notation P' := (unname_prog P).

  Lemma eval_use n s a : nd a -> eval lx P (S n) s (EDecl m0 k0) a = eval lx P n s (d_rhs d0) a.
  Proof.
    intros Ha. rewrite eval_S. cbn [eval_step]. rewrite Hd0. destruct Hplain as (Hr & Hc & Han & Hp).
    rewrite Hp, Han. cbn [compose bind]. rewrite Hr, Hc. cbn [orb]. rewrite (extend_nil a Ha). reflexivity.
  Qed.

  Lemma at_use_inv e : at_use e <> 0%nat -> e = EDecl m0 k0 /\ unname e = e0u /\ at_use e = 1%nat.
  Proof.
    destruct e; cbn [at_use unname]; try (intros H; now destruct H).
    destruct (N.eqb m m0 && N.eqb i k0) eqn:Eq; [|intros H; now destruct H].
    apply andb_prop in Eq as [Em Ei]. apply N.eqb_eq in Em, Ei. subst. auto.
  Qed.

  Theorem eval_inline : forall n s e a, nd a -> lef (eval lx P n s e a) (eval lx P' n s (unname e) a).
  Proof.
    induction n as [|n IH]; intros s e a Ha; [left; reflexivity|].
    destruct (Nat.eq_dec (at_use e) 0) as [El|El].
    - rewrite (unname_emap e El).
      apply (lef_cong lx P P' unname (get_decl_unname P) nd nd_nil extend_nd);
        [intros ? ? ? _ ? ?|intros ? _ ? ?|exact Ha]; apply IH.
    - apply at_use_inv in El as (-> & -> & _). rewrite (eval_use n s a Ha), <- He0u.
      eapply lef_trans; [apply IH, Ha|apply eval_fuel_step].
  Qed.

  Theorem eval_program_inline n rs : lef (eval_program lx P n rs) (eval_program lx P' n (map unname rs)).
  Proof.
    apply (lef_program_cong lx P P' unname nd nd_nil).
    intros c _ s a. apply eval_inline.
  Qed.

  (** The converse: the program with the declaration ends whenever the inlined one does. *)
  Hypothesis Hnoself : at_use (d_rhs d0) = 0%nat.

  Lemma at_use_le e : (at_use e <= 1)%nat.
  Proof. unfold at_use. destruct e; try lia. destruct (N.eqb m m0 && N.eqb i k0); lia. Qed.

  (** A use of the declaration costs the program that has it one level more than the inlined one
      (the use, then the body): [n] levels become [2 n], and one more if [e] itself is such a use. *)
  Theorem eval_uninline : forall n s e a, nd a ->
    lef (eval lx P' n s (unname e) a) (eval lx P (n * 2 + at_use e) s e a).
  Proof.
    induction n as [|n IH]; intros s e a Ha; [left; reflexivity|].
    assert (IHa : forall s e a, nd a -> lef (eval lx P' n s (unname e) a) (eval lx P (n * 2 + 1) s e a)).
    { intros s0 e1 a0 H0. eapply lef_more; [apply IH, H0|]. pose proof (at_use_le e1). lia. }
    assert (H0 : forall s e a, nd a -> at_use e = 0%nat -> lef (eval lx P' (S n) s (unname e) a) (eval lx P (S (n * 2 + 1)) s e a)).
    { clear s e a Ha. intros s e a Ha Hl. rewrite (unname_emap e Hl).
      apply (fel_cong lx P P' unname (get_decl_unname P) nd nd_nil extend_nd);
        [intros ? ? ? _ ? ?|intros ? _ ? ?|exact Ha]; apply IHa. }
    destruct (Nat.eq_dec (at_use e) 0) as [El|El].
    - rewrite El. replace (S n * 2 + 0)%nat with (S (n * 2 + 1)) by lia. apply H0; assumption.
    - apply at_use_inv in El as (-> & -> & ->).
      replace (S n * 2 + 1)%nat with (S (S (n * 2 + 1))) by lia. rewrite (eval_use _ s a Ha), <- He0u.
      apply H0; [exact Ha|exact Hnoself].
  Qed.

  Theorem eval_program_uninline n rs : lef (eval_program lx P' n (map unname rs)) (eval_program lx P (n * 2 + 1) rs).
  Proof.
    apply (fel_program_cong lx P P' unname nd nd_nil).
    intros c _ s a Ha. eapply lef_more; [apply eval_uninline, Ha|]. pose proof (at_use_le c). lia.
  Qed.
End Inline.

Section Occ.
  Variables m0 k0 : N.
  Fixpoint occ (e : expr) : bool :=
    match e with
    | ETerm _ e' | ESub e' | EProp _ _ e' | EUnary _ e' | EArr e' | ERec _ _ _ e' => occ e'
    | EDecl m i => N.eqb m m0 && N.eqb i k0
    | EApp f args => occ f || existsb occ args
    | EObj ps => existsb occ ps
    | EOp _ es => existsb occ es
    | ECont body metas => match body with Some b => occ b | None => false end || existsb (fun ke : N * expr => occ (snd ke)) metas
    | EXfer _ dom rg prm =>
        match dom with Some b => occ b | None => false end || occ rg || match prm with Some b => occ b | None => false end
    | EUri segs prm =>
        existsb (fun sg : str + expr => match sg with inl _ => false | inr e' => occ e' end) segs || match prm with Some b => occ b | None => false end
    | ERel u xs => occ u || existsb occ xs
    | _ => false
    end.

  Variable e0u : expr.
  Notation un := (unname m0 k0 e0u).

  Lemma map_id_in {A} (f : A -> A) l : (forall x, In x l -> f x = x) -> map f l = l.
  Proof. induction l as [|x l IH]; intros H; cbn [map]; [reflexivity|]. rewrite (H x (or_introl eq_refl)), IH; [reflexivity|]. intros y Hy. apply H. right. exact Hy. Qed.

  Lemma existsb_false_in {A} (f : A -> bool) l x : existsb f l = false -> In x l -> f x = false.
  Proof.
    intros H Hin. destruct (f x) eqn:E; [|reflexivity]. assert (existsb f l = true) by (apply existsb_exists; exists x; split; assumption). congruence.
  Qed.

  Lemma occ_at_use e : occ e = false -> at_use m0 k0 e = 0%nat.
  Proof. unfold at_use. destruct e; try reflexivity. cbn [occ]. intros ->. reflexivity. Qed.

  Lemma occ_subs e c : occ e = false -> In c (subs e) -> occ c = false.
  Proof.
    intros H.
    destruct e; cbn [occ] in H; cbn [subs]; intros Hc; try (destruct Hc; fail); try (destruct Hc as [<-|[]]; exact H).
    - apply orb_false_elim in H as [Hf Ha]. destruct Hc as [<-|Hc]; [exact Hf|apply (existsb_false_in _ _ _ Ha Hc)].
    - apply (existsb_false_in _ _ _ H Hc).
    - apply (existsb_false_in _ _ _ H Hc).
    - apply orb_false_elim in H as [Hb Hm]. apply in_app_or in Hc as [Hc|Hc]; [apply in_opt_list in Hc as ->; exact Hb|].
      apply in_map_iff in Hc as ([k x] & <- & Hx). apply (existsb_false_in _ _ _ Hm Hx).
    - apply orb_false_elim in H as [H Hp]. apply orb_false_elim in H as [Hd Hr].
      apply in_app_or in Hc as [Hc|[<-|Hc]]; [apply in_opt_list in Hc as ->; exact Hd|exact Hr|apply in_opt_list in Hc as ->; exact Hp].
    - apply orb_false_elim in H as [Hs Hp]. apply in_app_or in Hc as [Hc|Hc]; [|apply in_opt_list in Hc as ->; exact Hp].
      apply in_flat_map in Hc as ([x|x] & Hx & Hc); [destruct Hc|]. destruct Hc as [<-|[]]. apply (existsb_false_in _ _ _ Hs Hx).
    - apply orb_false_elim in H as [Hu Hx]. destruct Hc as [<-|Hc]; [exact Hu|apply (existsb_false_in _ _ _ Hx Hc)].
  Qed.

  Lemma unname_id e : occ e = false -> un e = e.
  Proof.
    induction e as [e IH] using expr_subs_ind. intros H.
    rewrite (unname_emap m0 k0 e0u e (occ_at_use e H)). rewrite <- (emap_id e) at 2.
    apply emap_ext. intros c Hc. apply (IH c Hc), (occ_subs e c H Hc).
  Qed.
End Occ.

Definition plain (d : decl) : Prop := d_ref d = None /\ d_rec d = false /\ d_anns d = [] /\ d_params d = [].

Section Free.
  Variable lx : bool.
  Variable P : prog.
  Variables m0 k0 : N.
  Variable d0 : decl.
  Hypothesis Hd0 : get_decl P m0 k0 = Some d0.
  Hypothesis Hplain : plain d0.
  Hypothesis Hocc : occ m0 k0 (d_rhs d0) = false.

  Definition inline_prog : prog := unname_prog m0 k0 (d_rhs d0) P.
  Definition inline_expr : expr -> expr := unname m0 k0 (d_rhs d0).

  Theorem inline_keeps_result n rs r :
    eval_program lx P n rs = r -> r <> Fuel -> eval_program lx inline_prog n (map inline_expr rs) = r.
  Proof.
    intros H Hr. unfold inline_prog, inline_expr.
    destruct (eval_program_inline m0 k0 (d_rhs d0) lx P d0 Hd0 Hplain (unname_id m0 k0 (d_rhs d0) (d_rhs d0) Hocc) n rs) as [E|E]; congruence.
  Qed.

  Theorem naming_keeps_result n rs r :
    eval_program lx inline_prog n (map inline_expr rs) = r -> r <> Fuel -> eval_program lx P (n * 2 + 1) rs = r.
  Proof.
    intros H Hr. unfold inline_prog, inline_expr in H.
    destruct (eval_program_uninline m0 k0 (d_rhs d0) lx P d0 Hd0 Hplain (unname_id m0 k0 (d_rhs d0) (d_rhs d0) Hocc) (occ_at_use m0 k0 _ Hocc) n rs) as [E|E]; congruence.
  Qed.

  Theorem inlining_is_free n1 n2 rs :
    eval_program lx P n1 rs <> Fuel -> eval_program lx inline_prog n2 (map inline_expr rs) <> Fuel ->
    eval_program lx P n1 rs = eval_program lx inline_prog n2 (map inline_expr rs).
  Proof.
    intros H1 H2. pose proof (inline_keeps_result n1 rs _ eq_refl H1) as E.
    rewrite <- E in H1 |- *. apply eval_program_fuel_agree; assumption.
  Qed.
End Free.

(** non-vacuity: [let t = { 'p num }; let f x = { 'q x, 'r t }; res /a on get -> <f t>;] and the
    program with [t] inlined differ and evaluate to the same document *)
Example ex_inl_P : prog :=
  [[ mk_decl None false [] [] (EObj [EProp 20 None (ETerm [] (EPrim 2))]);
     mk_decl None false [] [7] (EObj [EProp 21 None (ETerm [] (EBind 7)); EProp 22 None (ETerm [] (EDecl 0 0))]) ]].
Example ex_inl_rs : list expr :=
  [ERel (ETerm [] (EUri [inl 30] None))
        [EXfer [0] None (ECont (Some (EApp (EDecl 0 1) [ETerm [] (EDecl 0 0)])) []) None]].
Example ex_inlining :
  plain (mk_decl None false [] [] (EObj [EProp 20 None (ETerm [] (EPrim 2))])) /\
  inline_prog ex_inl_P 0 0 (mk_decl None false [] [] (EObj [EProp 20 None (ETerm [] (EPrim 2))])) <> ex_inl_P /\
  exists r, eval_program false ex_inl_P 50 ex_inl_rs = Ok r /\
            eval_program false (inline_prog ex_inl_P 0 0 (mk_decl None false [] [] (EObj [EProp 20 None (ETerm [] (EPrim 2))]))) 50
                         (map (inline_expr 0 0 (mk_decl None false [] [] (EObj [EProp 20 None (ETerm [] (EPrim 2))]))) ex_inl_rs) = Ok r.
Proof. split; [repeat split|]. split; [discriminate|]. eexists. split; vm_compute; reflexivity. Qed.
