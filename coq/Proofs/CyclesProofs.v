(** Proofs about Model/Cycles.v (property C09): the recursion check terminates and accepts
    exactly the graphs all of whose cycles pass through a referential declaration. *)
From Coq Require Import Lia Arith PeanoNat.
From Oal Require Import ListFacts Cycles.

(** walks of length >= 1 *)
Inductive walk (g : graph) : N -> N -> Prop :=
| walk_one a b : In (a, b) g -> walk g a b
| walk_cons a b c : In (a, b) g -> walk g b c -> walk g a c.

(** walks whose edges all lead to nodes satisfying [P] *)
Inductive walkP (P : N -> Prop) (g : graph) : N -> N -> Prop :=
| walkP_one a b : In (a, b) g -> P b -> walkP P g a b
| walkP_cons a b c : In (a, b) g -> P b -> walkP P g b c -> walkP P g a c.

Lemma walkP_walk (P : N -> Prop) (g : graph) a b : walkP P g a b -> walk g a b.
Proof. induction 1; [apply walk_one|eapply walk_cons]; eauto. Qed.

Lemma walkP_mono (P Q : N -> Prop) (g g' : graph) : (forall x y, In (x, y) g -> P y -> In (x, y) g' /\ Q y) ->
  forall a b, walkP P g a b -> walkP Q g' a b.
Proof. intros H a b W. induction W as [a b Hab Hb|a b c Hab Hb _ IH]; destruct (H a b Hab Hb); [apply walkP_one|eapply walkP_cons]; eauto. Qed.

Lemma walkP_last (P : N -> Prop) (g : graph) a b : walkP P g a b -> exists z, In (z, b) g.
Proof. induction 1 as [a b H _|a b c _ _ _ IH]; [exists a; exact H|exact IH]. Qed.

Section Proofs.
Variable referential : N -> bool.
Variable scc : list N -> graph -> list (list N).

Notation trivial := Cycles.trivial.
Notation round := (Cycles.round referential).
Notation cycles_check := (Cycles.cycles_check referential scc).

(** a cycle with no schema to cut at *)
Definition nonref (n : N) : Prop := referential n = false.
Definition bad_cycle (g : graph) : Prop := exists n, walkP nonref g n n.

(** contract of petgraph::algo::kosaraju_scc, as far as the check relies on it *)
Definition scc_spec : Prop :=
  forall ns g,
    (forall c, In c (scc ns g) -> c <> []) /\
    (* every node of a non-trivial component lies on a cycle that stays inside the component *)
    (forall c n, In c (scc ns g) -> trivial g c = false -> In n c -> walkP (fun x => In x c) g n n) /\
    (* every node on a cycle belongs to a non-trivial component *)
    (forall n, walk g n n -> exists c, In c (scc ns g) /\ trivial g c = false /\ In n c).

Hypothesis Hscc : scc_spec.

Lemma In_incoming g n e : In e (incoming g n) <-> In e g /\ snd e = n.
Proof. unfold incoming. rewrite filter_In, N.eqb_eq. reflexivity. Qed.

(** the nodes a round flags: the referential nodes of the non-trivial components *)
Definition flagged (g : graph) (comps : list (list N)) : list N :=
  flat_map (filter referential) (filter (fun c => negb (trivial g c)) comps).

Lemma In_flagged g comps n :
  In n (flagged g comps) <-> exists c, In c comps /\ trivial g c = false /\ In n c /\ referential n = true.
Proof.
  unfold flagged. rewrite in_flat_map. split.
  - intros (c & Hc & Hn). apply filter_In in Hc as [Hc Ht]. apply filter_In in Hn as [Hn Hr]. apply negb_true_iff in Ht. exists c. auto.
  - intros (c & Hc & Ht & Hn & Hr). exists c. rewrite !filter_In, Ht. auto.
Qed.

Lemma flagged_edges g comps e : In e (flat_map (incoming g) (flagged g comps)) -> In e g /\ referential (snd e) = true.
Proof.
  intros He. apply in_flat_map in He as (n & Hn & He). apply In_incoming in He as [Hg <-].
  apply In_flagged in Hn as (c & _ & _ & _ & Hr). auto.
Qed.

Lemma round_inl g comps : forall inb marks inb' marks',
  round g comps inb marks = inl (inb', marks') ->
  inb' = inb ++ flat_map (incoming g) (flagged g comps) /\ marks' = marks ++ flagged g comps /\
  (inb' = [] -> forall c, In c comps -> trivial g c = true).
Proof.
  unfold flagged. induction comps as [|c cs IH]; intros inb marks inb' marks' H; cbn [Cycles.round filter] in H |- *.
  - injection H as <- <-. cbn [flat_map]. rewrite !app_nil_r. split; [reflexivity|]. split; [reflexivity|]. intros _ c [].
  - destruct (trivial g c) eqn:Et; cbn [negb].
    + destruct (IH _ _ _ _ H) as (A & B & C). split; [exact A|]. split; [exact B|].
      intros E c' [<-|Hc']; [exact Et|apply C; assumption].
    + destruct (inb ++ flat_map (incoming g) (filter referential c)) as [|e0 rest] eqn:Ei; [discriminate|].
      destruct (IH _ _ _ _ H) as (A & B & _). cbn [flat_map]. rewrite flat_map_app, !app_assoc, Ei.
      split; [exact A|]. split; [exact B|]. intros E. rewrite E in A. discriminate A.
Qed.

Lemma round_err g comps : forall inb marks n,
  round g comps inb marks = inr n ->
  exists c, In c comps /\ trivial g c = false /\ (forall x, In x c -> referential x = true -> incoming g x = []).
Proof.
  induction comps as [|c cs IH]; intros inb marks n H; cbn [Cycles.round] in H; [discriminate|].
  destruct (trivial g c) eqn:Et.
  - destruct (IH _ _ _ H) as (c' & A & B & C). exists c'. split; [right; exact A|]. auto.
  - destruct (inb ++ flat_map (incoming g) (filter referential c)) as [|e0 rest] eqn:Ei.
    + exists c. split; [left; reflexivity|]. split; [exact Et|].
      intros x Hx Hr. apply app_eq_nil in Ei as [_ Ei]. apply incl_l_nil. intros e He. rewrite <- Ei.
      apply in_flat_map. exists x. split; [apply filter_In; auto|exact He].
    + destruct (IH _ _ _ H) as (c' & A & B & C). exists c'. split; [right; exact A|]. auto.
Qed.

Lemma existsb_edge_eqb e inb : existsb (edge_eqb e) inb = true <-> In e inb.
Proof.
  rewrite existsb_exists. unfold edge_eqb. split.
  - intros ([a b] & Hx & He). destruct e. cbn [fst snd] in He. apply andb_true_iff in He as [H1 H2].
    apply N.eqb_eq in H1, H2. subst. exact Hx.
  - intros H. exists e. rewrite !N.eqb_refl. auto.
Qed.

Lemma In_remove_edges inb g e : In e (remove_edges inb g) <-> In e g /\ ~ In e inb.
Proof. unfold remove_edges. rewrite filter_In, negb_true_iff, <- not_true_iff_false, existsb_edge_eqb. reflexivity. Qed.

Lemma bad_cycle_remove g inb :
  (forall e, In e inb -> referential (snd e) = true) -> bad_cycle (remove_edges inb g) <-> bad_cycle g.
Proof.
  intros Hinb. split; intros [n W]; exists n; (eapply walkP_mono; [|exact W]); intros x y Hxy Hy; (split; [|exact Hy]).
  - apply In_remove_edges in Hxy. apply Hxy.
  - apply In_remove_edges. split; [exact Hxy|].
    intros C. specialize (Hinb _ C). cbn in Hinb. unfold nonref in Hy. congruence.
Qed.

Lemma remove_edges_length inb g e : In e inb -> In e g -> length (remove_edges inb g) < length g.
Proof.
  intros Hi Hg. unfold remove_edges. induction g as [|x g IH]; [destruct Hg|].
  cbn [filter length]. destruct Hg as [->|Hg].
  - rewrite (proj2 (existsb_edge_eqb e inb) Hi). cbn [negb]. pose proof (filter_len_le (fun e0 => negb (existsb (edge_eqb e0) inb)) g). lia.
  - specialize (IH Hg). destruct (negb (existsb (edge_eqb x) inb)); cbn [length]; lia.
Qed.

(** a round fails at a component none of whose nodes is referential: a referential node on a
    cycle has an incoming edge *)
Lemma round_inr_bad_cycle ns g inb marks n : round g (scc ns g) inb marks = inr n -> bad_cycle g.
Proof.
  intros Hr. destruct (Hscc ns g) as (Hne & Hin & _). destruct (round_err _ _ _ _ _ Hr) as (c & Hc & Ht & Hnoref).
  assert (Hall : forall x, In x c -> referential x = false).
  { intros x Hx. destruct (referential x) eqn:E; [|reflexivity]. exfalso.
    destruct (walkP_last _ _ _ _ (Hin c x Hc Ht Hx)) as [z Hz].
    assert (Hi : In (z, x) (incoming g x)) by (apply In_incoming; auto).
    rewrite (Hnoref x Hx E) in Hi. destruct Hi. }
  destruct c as [|x c']; [destruct (Hne _ Hc); reflexivity|].
  exists x. eapply walkP_mono; [|apply (Hin _ x Hc Ht); left; reflexivity].
  intros y z Hyz Hz. split; [exact Hyz|apply Hall, Hz].
Qed.

Theorem cycles_check_spec : forall fuel ns g marks,
  length g < fuel ->
  match cycles_check fuel ns g marks with
  | COk _ => ~ bad_cycle g
  | CErr _ => bad_cycle g
  | CFuel => False
  end.
Proof.
  induction fuel as [|fuel IH]; intros ns g marks Hlen; [lia|].
  cbn [Cycles.cycles_check].
  destruct (round g (scc ns g) [] marks) as [[inb marks']|n] eqn:Hr; [|exact (round_inr_bad_cycle _ _ _ _ _ Hr)].
  destruct (round_inl g (scc ns g) [] marks inb marks' Hr) as (A & _ & C). cbn [app] in A.
  assert (Hinb : forall e, In e inb -> In e g /\ referential (snd e) = true) by (rewrite A; apply flagged_edges).
  clear A. destruct inb as [|e0 rest].
  - (* no component is non-trivial: the graph has no cycle at all *)
    destruct (Hscc ns g) as (_ & _ & Hon).
    intros [n W]. destruct (Hon n (walkP_walk _ _ _ _ W)) as (c & Hc & Ht & _).
    rewrite (C eq_refl c Hc) in Ht. discriminate.
  - (* a round that goes on removes an edge of the graph: [length g + 1] rounds are enough *)
    assert (Hlt : length (remove_edges (e0 :: rest) g) < fuel).
    { destruct (Hinb e0 (or_introl eq_refl)) as [Hg _].
      pose proof (remove_edges_length (e0 :: rest) g e0 (or_introl eq_refl) Hg). lia. }
    specialize (IH ns (remove_edges (e0 :: rest) g) marks' Hlt).
    assert (Hiff := bad_cycle_remove g (e0 :: rest) (fun e He => proj2 (Hinb e He))).
    destruct (cycles_check fuel ns (remove_edges (e0 :: rest) g) marks'); try rewrite <- Hiff; exact IH.
Qed.

Corollary cycles_check_terminates ns g : cycles_check (S (length g)) ns g [] <> CFuel.
Proof. pose proof (cycles_check_spec (S (length g)) ns g [] ltac:(lia)) as H. destruct (cycles_check _ _ _ _); [discriminate|discriminate|destruct H]. Qed.

Corollary accepted_iff_every_cycle_cut ns g :
  (exists m, cycles_check (S (length g)) ns g [] = COk m) <-> ~ bad_cycle g.
Proof.
  pose proof (cycles_check_spec (S (length g)) ns g [] ltac:(lia)) as H.
  destruct (cycles_check (S (length g)) ns g []) eqn:E.
  - split; [intros _; exact H|intros _; eauto].
  - split; [intros [m Hm]; discriminate|intros Hn; contradiction].
  - destruct H.
Qed.

Lemma walk_sub g g' : (forall e, In e g' -> In e g) -> forall a b, walk g' a b -> walk g a b.
Proof. intros H a b W. induction W; [apply walk_one|eapply walk_cons]; eauto. Qed.

Theorem marks_cover : forall fuel ns g marks marks',
  cycles_check fuel ns g marks = COk marks' ->
  (forall n, In n marks -> In n marks') /\
  (forall n, walk g n n -> referential n = true -> In n marks').
Proof.
  induction fuel as [|fuel IH]; intros ns g marks marks' H; [discriminate|].
  cbn [Cycles.cycles_check] in H.
  destruct (Hscc ns g) as (_ & _ & Hon).
  destruct (round g (scc ns g) [] marks) as [[inb m1]|n] eqn:Hr; [|discriminate].
  destruct (round_inl _ _ _ _ _ _ Hr) as (_ & -> & _).
  assert (A : forall n, In n marks -> In n (marks ++ flagged g (scc ns g))) by (intros n Hn; apply in_or_app; left; exact Hn).
  assert (Hcov : forall n, walk g n n -> referential n = true -> In n (marks ++ flagged g (scc ns g))).
  { intros n W Hn. destruct (Hon n W) as (c & Hc & Ht & Hin). apply in_or_app. right. apply In_flagged. exists c. auto. }
  destruct inb as [|e0 rest].
  - inversion H; subst. split; [exact A|exact Hcov].
  - destruct (IH _ _ _ _ H) as [A' _]. split; [intros n Hn; apply A', A, Hn|]. intros n W Hn. apply A', Hcov; assumption.
Qed.

Lemma walk_trans g a b c : walk g a b -> walk g b c -> walk g a c.
Proof. intros W1 W2. induction W1; eapply walk_cons; eauto. Qed.

Lemma walk_close g a b c : In (a, b) g -> c = a \/ walk g c a -> walk g c b.
Proof. intros Hab [->|Wc]; [apply walk_one, Hab|eapply walk_trans; [exact Wc|apply walk_one, Hab]]. Qed.

(** every node on a closed walk lies on a cycle *)
Lemma walkP_on_cycle (Q : N -> Prop) g a c : walkP Q g a c -> (c = a \/ walk g c a) ->
  walkP (fun x => Q x /\ walk g x x) g a c.
Proof.
  intros W. induction W as [a b Hab Hb|a b c Hab Hb W IH]; intros Hclose; pose proof (walk_close g a b _ Hab Hclose) as Wcb.
  - apply walkP_one; [exact Hab|]. split; assumption.
  - eapply walkP_cons; [exact Hab| |apply IH; right; exact Wcb].
    split; [exact Hb|]. eapply walk_trans; [eapply walkP_walk, W|exact Wcb].
Qed.

Theorem flagged_cut_every_cycle ns g marks' :
  cycles_check (S (length g)) ns g [] = COk marks' ->
  ~ exists n, walkP (fun x => ~ In x marks') g n n.
Proof.
  intros H [n W].
  pose proof (cycles_check_spec (S (length g)) ns g [] ltac:(lia)) as Hs. rewrite H in Hs.
  destruct (marks_cover _ _ _ _ _ H) as [_ Hcov].
  apply Hs. exists n. eapply walkP_mono; [|apply (walkP_on_cycle _ _ _ _ W); left; reflexivity].
  intros y x Hyx [Hx Wx]. split; [exact Hyx|]. unfold nonref. destruct (referential x) eqn:E; [|reflexivity]. exfalso. apply Hx, Hcov; assumption.
Qed.

End Proofs.
