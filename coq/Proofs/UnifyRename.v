(** The verdict of inference does not depend on the names of the type variables (C07): an
    injective renaming of the variables of a system of equations keeps it solvable, hence
    accepted; with a bijection the verdict is the same both ways. Nor does it depend on which
    side of an equation a tag stands. *)
From Oal Require Import Tag Unify UnifyProofs UnifyComplete.
Local Open Scope N_scope.

Section Rename.
  Variable rho : N -> N.
  Hypothesis rho_inj : forall x y, rho x = rho y -> x = y.

  Fixpoint rt (t : tag) : tag :=
    match t with
    | TBase b => TBase b
    | TProperty t' => TProperty (rt t')
    | TFunc bs r => TFunc (map rt bs) (rt r)
    | TVar v => TVar (rho v)
    end.
  Definition rs (s : subst) : subst := map (fun vu : N * tag => (rho (fst vu), rt (snd vu))) s.
  Definition req (e : tag * tag) : tag * tag := (rt (fst e), rt (snd e)).

  Lemma eqb_rho x y : N.eqb (rho x) (rho y) = N.eqb x y.
  Proof. destruct (N.eqb_spec x y) as [->|H]; [apply N.eqb_refl|]. apply N.eqb_neq. intros E. apply H, rho_inj, E. Qed.

  Lemma occurs_rt v : forall t, occurs (rho v) (rt t) = occurs v t.
  Proof.
    induction t as [x|x IH|xs x IHxs IHx|y] using tag_ind'; cbn [rt occurs]; try reflexivity; try assumption.
    - rewrite IHx. f_equal. induction IHxs as [|b xs Hb _ IHl]; [reflexivity|]. cbn [map existsb]. rewrite Hb, IHl. reflexivity.
    - apply eqb_rho.
  Qed.

  Lemma apply_one_rt v u : forall t, apply_one (rho v) (rt u) (rt t) = rt (apply_one v u t).
  Proof.
    induction t as [x|x IH|xs x IHxs IHx|y] using tag_ind'; cbn [rt apply_one]; try reflexivity.
    - f_equal. exact IH.
    - f_equal; [|exact IHx]. rewrite !map_map. apply map_ext_Forall, IHxs.
    - rewrite eqb_rho. destruct (N.eqb y v); reflexivity.
  Qed.

  Lemma apply_rs s : forall t, apply (rs s) (rt t) = rt (apply s t).
  Proof. induction s as [|[v u] s IH]; intros t; [reflexivity|]. cbn [rs map apply fst snd]. fold (rs s). rewrite IH. apply apply_one_rt. Qed.

  Lemma solves_rs th eqs : solves th eqs -> solves (rs th) (map req eqs).
  Proof.
    unfold solves. rewrite Forall_map. apply Forall_impl. intros e He. cbn [req fst snd]. rewrite !apply_rs, He. reflexivity.
  Qed.

  Theorem acceptance_renaming eqs :
    (exists n s j, unify_all n [] eqs 0 = (UOk s, j)) -> exists n s j, unify_all n [] (map req eqs) 0 = (UOk s, j).
  Proof.
    apply acceptance_transfer. intros th Hs. exists (rs th). apply solves_rs, Hs.
  Qed.
End Rename.

Lemma rt_rt rho rho' : (forall v, rho' (rho v) = v) -> forall t, rt rho' (rt rho t) = t.
Proof.
  intros H. induction t as [x|x IH|xs x IHxs IHx|y] using tag_ind'; cbn [rt]; try reflexivity.
  - f_equal. exact IH.
  - f_equal; [|exact IHx]. rewrite map_map. rewrite <- (map_id xs) at 2. apply map_ext_Forall, IHxs.
  - rewrite H. reflexivity.
Qed.

Theorem acceptance_renaming_iff rho rho' eqs : (forall v, rho' (rho v) = v) -> (forall v, rho (rho' v) = v) ->
  (exists n s j, unify_all n [] eqs 0 = (UOk s, j)) <-> (exists n s j, unify_all n [] (map (req rho) eqs) 0 = (UOk s, j)).
Proof.
  intros H1 H2. split.
  - apply acceptance_renaming. intros x y E. rewrite <- (H1 x), <- (H1 y), E. reflexivity.
  - intros H. apply (acceptance_renaming rho') in H; [|intros x y E; rewrite <- (H2 x), <- (H2 y), E; reflexivity].
    rewrite map_map in H. rewrite (map_ext _ (fun e => e)) in H; [rewrite map_id in H; exact H|].
    intros [l r]. unfold req. cbn [fst snd]. rewrite !(rt_rt rho rho' H1). reflexivity.
Qed.

Theorem acceptance_swap eqs :
  (exists n s j, unify_all n [] eqs 0 = (UOk s, j)) -> exists n s j, unify_all n [] (map (fun e : tag * tag => (snd e, fst e)) eqs) 0 = (UOk s, j).
Proof.
  apply acceptance_transfer. intros th Hs. exists th.
  unfold solves. rewrite Forall_map. revert Hs. apply Forall_impl. intros e He. symmetry. exact He.
Qed.
