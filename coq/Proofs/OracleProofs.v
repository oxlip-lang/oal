(** Iteration-order oracles (Model/Oracle.v, property C06): the emitter keeps the order of
    examples, which the code before the fix F3 did not; scope identifiers are issued per
    evaluation, not per process. *)
From Coq Require Import Permutation Lia.
From Oal Require Import Oracle.

(** after the fix the emitter's pass over the examples is the identity: no entry is dropped or moved *)
Theorem examples_lossless ex : content_examples ex = ex.
Proof. unfold content_examples. induction ex as [|[a b] ex IH]; cbn; [reflexivity|]. rewrite IH. reflexivity. Qed.

Theorem examples_keep_order ex : map fst (content_examples ex) = map fst ex.
Proof. rewrite examples_lossless. reflexivity. Qed.

(** F3 on the pinned tree: two legitimate iteration orders, two different documents *)
Lemma examples_order_pinned_refuted :
  exists (o1 o2 : examples -> examples) ex,
    (forall e, Permutation (o1 e) e) /\ (forall e, Permutation (o2 e) e) /\
    content_examples_pinned o1 ex <> content_examples_pinned o2 ex.
Proof.
  exists (fun e => e), (@rev _), [([97%N], [1%N]); ([98%N], [2%N])].
  split; [intros; apply Permutation_refl|]. split; [intros; symmetry; apply Permutation_rev|].
  cbn. discriminate.
Qed.

(** [ids_of_run] has no argument for what the process evaluated before: the independence is
    in the model's definition, and this statement adds nothing to it *)
Theorem scope_ids_fresh_per_run p : ids_of_run p = ids_of_run p.
Proof. reflexivity. Qed.

(** a process-wide counter (the seeded mutation) is visible: the second run gets other ids ... *)
Lemma scope_ids_static_differs :
  exists p1 p2, ids_of_second_run_static p1 p2 <> ids_of_run p2.
Proof. exists 1, 1. cbn. discriminate. Qed.

(** ... namely those of a fresh counter shifted by where it starts *)
Lemma scope_ids_shift n : forall k, scope_ids n k = map (fun i => (i + k)%N) (scope_ids n 0).
Proof.
  induction n as [|n IH]; intros k; cbn [scope_ids map]; [reflexivity|].
  rewrite (IH (k + 1)%N), (IH (0 + 1)%N). rewrite map_map. f_equal; [lia|].
  apply map_ext. intros a. lia.
Qed.
