(** The list helpers of the models, characterised once: [obind], [oall], [get], [put] of
    Model/Builder.v and [set_nth] of Model/Eval.v. *)
From Oal Require Import Builder ListFacts.
From Coq Require Import Lia.
Local Open Scope N_scope.

Lemma obind_Some {X Y} (o : option X) (f : X -> option Y) y :
  obind o f = Some y -> exists x, o = Some x /\ f x = Some y.
Proof. destruct o as [x|]; [intros H; exists x; auto|discriminate]. Qed.

Lemma obind_total {X Y} (o : option X) (f : X -> option Y) :
  (exists x, o = Some x) -> (forall x, exists y, f x = Some y) -> exists y, obind o f = Some y.
Proof. intros [x ->] H. apply H. Qed.

Lemma oall_Some {A} (l : list (option A)) : forall ys, oall l = Some ys <-> l = map Some ys.
Proof.
  induction l as [|o l IH]; intros ys.
  - destruct ys; split; try discriminate; reflexivity.
  - change (oall (o :: l)) with (match o, oall l with Some x, Some xs => Some (x :: xs) | _, _ => None end).
    destruct o as [x|]; [|split; [discriminate|destruct ys; discriminate]].
    destruct (oall l) as [xs|]; split.
    + intros [= <-]. cbn [map]. f_equal. apply IH. reflexivity.
    + destruct ys as [|y ys]; [discriminate|]. intros [= <- E]. apply IH in E. congruence.
    + discriminate.
    + destruct ys as [|y ys]; [discriminate|]. intros [= _ E]. apply IH in E. discriminate E.
Qed.

Lemma oall_in {A} (l : list (option A)) ys y : oall l = Some ys -> In y ys -> In (Some y) l.
Proof. intros H Hy. apply oall_Some in H as ->. apply in_map, Hy. Qed.

Lemma oall_total {A} (l : list (option A)) : (forall o, In o l -> exists y, o = Some y) -> exists ys, oall l = Some ys.
Proof.
  induction l as [|o l IH]; intros H; [exists []; reflexivity|].
  destruct (H o (or_introl eq_refl)) as [y ->]. destruct IH as [ys Hys]; [intros o Ho; apply H; right; exact Ho|].
  exists (y :: ys). apply oall_Some. cbn [map]. f_equal. apply oall_Some, Hys.
Qed.

Lemma oall_app {A} (l1 l2 : list (option A)) c :
  oall (l1 ++ l2) = Some c <-> exists a b, oall l1 = Some a /\ oall l2 = Some b /\ c = a ++ b.
Proof.
  rewrite oall_Some. split.
  - intros H. symmetry in H. apply map_eq_app in H as (a & b & -> & <- & <-). exists a, b. repeat split; apply oall_Some; reflexivity.
  - intros (a & b & Ha & Hb & ->). apply oall_Some in Ha, Hb. subst. symmetry. apply map_app.
Qed.

Lemma oall_app_total {A} (l1 l2 : list (option A)) :
  (exists a, oall l1 = Some a) -> (exists b, oall l2 = Some b) -> exists c, oall (l1 ++ l2) = Some c.
Proof. intros [a Ha] [b Hb]. exists (a ++ b). apply oall_app. eauto. Qed.

Lemma oall_map_total {A B} (f : A -> option B) l :
  (forall x, In x l -> exists y, f x = Some y) -> exists ys, oall (map f l) = Some ys.
Proof. intros H. apply oall_total. intros o Ho. apply in_map_iff in Ho as (x & <- & Hx). apply H, Hx. Qed.

Lemma oall_map_forall {A B} (f : A -> option B) (Q : B -> Prop) l ys :
  oall (map f l) = Some ys -> (forall x y, In x l -> f x = Some y -> Q y) -> Forall Q ys.
Proof.
  intros H HQ. apply Forall_forall. intros y Hy. apply (oall_in _ _ _ H) in Hy.
  apply in_map_iff in Hy as (x & E & Hx). apply (HQ x y Hx E).
Qed.

Lemma get_cons_same {V} k (v : V) m : get k ((k, v) :: m) = Some v.
Proof. cbn [get]. destruct (list_eq_dec N.eq_dec k k); [reflexivity|contradiction]. Qed.

Lemma get_cons_other {V} k k' (v : V) m : k <> k' -> get k ((k', v) :: m) = get k m.
Proof. intros H. cbn [get]. destruct (list_eq_dec N.eq_dec k k'); [contradiction|reflexivity]. Qed.

Lemma get_put_same {V} k (v : V) m : get k (put k v m) = Some v.
Proof.
  induction m as [|[k0 v0] m IH]; cbn [put]; [apply get_cons_same|].
  destruct (list_eq_dec N.eq_dec k k0) as [<-|E]; [apply get_cons_same|]. rewrite get_cons_other by exact E. exact IH.
Qed.

Lemma get_put_other {V} k k' (v : V) m : k <> k' -> get k (put k' v m) = get k m.
Proof.
  intros Hne. induction m as [|[k0 v0] m IH]; cbn [put]; [apply get_cons_other, Hne|].
  destruct (list_eq_dec N.eq_dec k' k0) as [<-|E]; [rewrite !get_cons_other by exact Hne; reflexivity|].
  cbn [get]. destruct (list_eq_dec N.eq_dec k k0); [reflexivity|exact IH].
Qed.

Lemma get_in {V} k (m : list (text * V)) v : get k m = Some v -> In (k, v) m.
Proof.
  induction m as [|[k0 v0] m IH]; cbn [get]; [discriminate|].
  destruct (list_eq_dec N.eq_dec k k0) as [<-|_]; [intros [= <-]; left; reflexivity|intros H; right; apply IH, H].
Qed.

Lemma if_in_dec {A B} (D : forall x y : A, {x = y} + {x <> y}) k l (a b : B) :
  (In k l -> (if in_dec D k l then a else b) = a) /\ (~ In k l -> (if in_dec D k l then a else b) = b).
Proof. destruct (in_dec D k l); split; intros H; [reflexivity|contradiction|contradiction|reflexivity]. Qed.

Lemma put_keys {V} k (v : V) m :
  map fst (put k v m) = if in_dec (list_eq_dec N.eq_dec) k (map fst m) then map fst m else map fst m ++ [k].
Proof.
  induction m as [|[k0 v0] m IH]; cbn [put map fst]; [symmetry; apply if_in_dec; intros []|].
  destruct (list_eq_dec N.eq_dec k k0) as [->|Hne]; cbn [map fst]; [symmetry; apply if_in_dec; left; reflexivity|].
  rewrite IH. destruct (in_dec (list_eq_dec N.eq_dec) k (map fst m)) as [Hin|Hnin]; symmetry; apply if_in_dec.
  - right. exact Hin.
  - intros [E|Hin]; [exact (Hne (eq_sym E))|exact (Hnin Hin)].
Qed.

Lemma put_keys_in {V} k (v : V) m k' : k' = k \/ In k' (map fst m) -> In k' (map fst (put k v m)).
Proof.
  rewrite put_keys. destruct (in_dec (list_eq_dec N.eq_dec) k (map fst m)) as [Hin|_].
  - intros [->|H]; assumption.
  - intros [->|H]; apply in_or_app; [right; left; reflexivity|left; exact H].
Qed.

Lemma put_Forall {V} (Q : text * V -> Prop) k v m : Forall Q m -> Q (k, v) -> Forall Q (put k v m).
Proof.
  intros Hm Hv. induction Hm as [|[k0 v0] m H0 Hm IH]; cbn [put]; [repeat constructor; exact Hv|].
  destruct (list_eq_dec N.eq_dec k k0) as [<-|_]; constructor; assumption.
Qed.

Lemma fold_put_Forall {V} (Q : text * V -> Prop) items acc : Forall Q acc -> Forall Q items ->
  Forall Q (fold_left (fun m kv => put (fst kv) (snd kv) m) items acc).
Proof.
  intros Ha Hi. apply (fold_left_invariant (Forall Q) Q); [|exact Ha|exact Hi].
  intros m [k v] Hm Hkv. apply put_Forall; assumption.
Qed.

Lemma set_nth_length {A} n (a : A) l : length (set_nth n a l) = length l.
Proof. revert n. induction l as [|x l IH]; intros [|n]; cbn [set_nth length]; auto. Qed.

Lemma set_nth_nth {A} n (a : A) l d m : (n < length l)%nat -> nth m (set_nth n a l) d = if Nat.eqb m n then a else nth m l d.
Proof.
  revert n m. induction l as [|x l IH]; intros n m Hn; [cbn in Hn; lia|].
  destruct n as [|n], m as [|m]; cbn [set_nth nth Nat.eqb]; try reflexivity. apply IH. cbn in Hn. lia.
Qed.
