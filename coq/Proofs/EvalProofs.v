(** Two theorems about the evaluator model (Model/Eval.v), both instances of the congruence of
    an evaluation step (EvalCong).

    [eval_rename]: evaluation commutes with any injective renaming of the bound identifiers
    (parameters and rec binders) of the whole program: same values, same reference table,
    same errors and panics. Values never mention binder names, so this is an equation.

    [eval_lexical]: for lexically closed programs the code's by-name lookup in the whole stack
    computes what the reference semantics computes, in which a body sees its own scope only. *)
From Oal Require Import Eval EvalBasics EvalCong.
From Coq Require Import Lia.
Local Open Scope N_scope.

Section Rename.
  Variable rho : N -> N.
  Hypothesis rho_inj : forall x y, rho x = rho y -> x = y.

  Fixpoint ren (e : expr) : expr :=
    match e with
    | ETerm anns e' => ETerm anns (ren e')
    | ESub e' => ESub (ren e')
    | EPrim p => EPrim p
    | ELitStr x => ELitStr x
    | ELitNum x => ELitNum x
    | ELitStat x => ELitStat x
    | EDecl m i => EDecl m i
    | EConcat => EConcat
    | EBind x => EBind (rho x)
    | EApp f args => EApp (ren f) (map ren args)
    | ERec m i x e' => ERec m i (rho x) (ren e')
    | EObj ps => EObj (map ren ps)
    | EProp name req e' => EProp name req (ren e')
    | EUnary b e' => EUnary b (ren e')
    | EArr e' => EArr (ren e')
    | EOp op es => EOp op (map ren es)
    | ECont body metas =>
        ECont (option_map ren body) (map (fun ke => match ke with (k, e') => (k, ren e') end) metas)
    | EXfer ms dom rg prm => EXfer ms (option_map ren dom) (ren rg) (option_map ren prm)
    | EUri segs prm =>
        EUri (map (fun sg => match sg with inl x => inl x | inr e' => inr (ren e') end) segs) (option_map ren prm)
    | ERel u xs => ERel (ren u) (map ren xs)
    end.

  Definition ren_decl (d : decl) : decl :=
    mk_decl (d_ref d) (d_rec d) (d_anns d) (map rho (d_params d)) (ren (d_rhs d)).
  Definition ren_prog (P : prog) : prog := map (map ren_decl) P.

  Definition rk (kv : N * aval) : N * aval := (rho (fst kv), snd kv).
  Definition rsc (sc : scope) : scope := map rk sc.
  Definition rss (ss : list (N * scope)) : list (N * scope) := map (fun f => (fst f, rsc (snd f))) ss.
  Definition rst (s : st) : st := mk_st (refs s) (rss (scopes s)) (seq s).

  Definition rres {B} (r : res (st * B)) : res (st * B) :=
    match r with Ok (t, v) => Ok (rst t, v) | Err e => Err e | Panic p => Panic p | Fuel => Fuel end.

  Lemma lookup_ren x ss : lookup_binding (rho x) (rss ss) = lookup_binding x ss.
  Proof.
    induction ss as [|[id sc] ss IH]; [reflexivity|]. cbn [rss map fst snd lookup_binding].
    unfold rsc. rewrite (im_get_map N.eqb N.eqb rho (fun v => v) rk (fun _ _ => eq_refl) (eqb_inj rho rho_inj)).
    destruct (im_get N.eqb x sc); [reflexivity|exact IH].
  Qed.

  Lemma pop_ren s : pop_scope (rst s) = rst (pop_scope s).
  Proof. unfold pop_scope, rst. cbn [refs scopes seq]. f_equal. destruct (scopes s); reflexivity. Qed.
  Lemma top_ren s : top_scope_id (rst s) = top_scope_id s.
  Proof. unfold top_scope_id, rst. cbn [scopes]. destruct (scopes s) as [|[id sc] ss]; reflexivity. Qed.

  Definition rres_of {B} (r r' : res (st * B)) : Prop := r' = rres r.

  Lemma rres_of_bind B C (r r' : res (st * B)) (k k' : st * B -> res (st * C)) :
    rres_of r r' -> (forall t v, rres_of (k (t, v)) (k' (rst t, v))) -> rres_of (bind r k) (bind r' k').
  Proof. unfold rres_of. intros -> Hk. destruct r as [[t v]| | |]; cbn [rres bind]; auto. Qed.

  Lemma ren_emapr e : ren e = emapr rho ren e.
  Proof. destruct e; reflexivity. Qed.

  Theorem eval_rename_any lx P : forall n s e a,
    eval lx (ren_prog P) n (rst s) (ren e) a = rres (eval lx P n s e a).
  Proof.
    induction n as [|n IH]; intros s e a; [reflexivity|]. rewrite ren_emapr.
    apply eval_hom with (sm := rst) (scm := rsc) (R := @rres_of) (ok := any_ann); try reflexivity; auto.
    - exact rres_of_bind.
    - intros x s0. apply lookup_ren.
    - intros s0. apply pop_ren.
    - intros s0. apply top_ren.
    - intros p v sc. apply (im_insert_map N.eqb N.eqb rho (fun v => v) rk (fun _ _ => eq_refl) (eqb_inj rho rho_inj)).
    - intros m i. apply (get_decl_map_decl ren_decl).
    - intros m i d _ s0 a0 _. apply IH.
    - intros c _ s0 a0 _. apply IH.
  Qed.

  Theorem eval_rename P : forall n s e a,
    eval false (ren_prog P) n (rst s) (ren e) a = rres (eval false P n s e a).
  Proof. exact (eval_rename_any false P). Qed.

  (* what follows a run does not look at the scopes *)
  Lemma rres_bind_out {B C} (r : res (st * B)) (k : st * B -> res C) :
    (forall t v, k (rst t, v) = k (t, v)) -> bind (rres r) k = bind r k.
  Proof. intros Hk. destruct r as [[t v]| | |]; [apply Hk|reflexivity..]. Qed.

  (** whole programs: the emitted relations and reference table are identical *)
  Theorem eval_program_rename P n rs :
    eval_program false (ren_prog P) n (map ren rs) = eval_program false P n rs.
  Proof.
    unfold eval_program. rewrite <- (rres_bind_out (map_st _ st0 rs)) by reflexivity. f_equal.
    change st0 with (rst st0) at 1.
    apply map_st_cong with (sm := rst) (Inv := always) (R := @rres_of); [reflexivity| | |exact I].
    - intros B C r r' k k' Hr Hk. apply rres_of_bind; [exact Hr|]. intros t v. apply Hk. exact I.
    - intros s x _ _. apply rres_of_bind; [apply eval_rename|]. intros t v. destruct (cast_relation (fst v)); reflexivity.
  Qed.
End Rename.

(** * binding is lexical

    [eval true] is the lexical reference semantics: a function body sees its own scope only.
    For a program whose declaration bodies are closed under their parameters (what name
    resolution guarantees), the stack machine of the code ([eval false]), run with any
    caller stack [o] underneath, computes exactly what the reference semantics computes,
    unless the reference semantics reports an under-applied function.

    [sim o fr r r']: the reference run [r] ends with the frames [fr] on its stack, and the code's
    run [r'] ends alike with [o] still underneath; [bound xs fr]: the free binders [xs] are found
    in the frames, so that the lookup never reaches [o]. *)
Definition app_outer (s : st) (o : list (N * scope)) : st := mk_st (refs s) (scopes s ++ o) (seq s).

Definition bound (xs : list N) (fr : list (N * scope)) : Prop :=
  forall x, In x xs -> lookup_binding x fr <> None.

Definition sim {B} (o fr : list (N * scope)) (r r' : res (st * B)) : Prop :=
  match r with
  | Ok (t, v) => r' = Ok (app_outer t o, v) /\ scopes t = fr
  | Err x => r' = Err x
  | Panic p => p = P_arity \/ r' = Panic p
  | Fuel => r' = Fuel
  end.

Lemma lookup_app x fr o : lookup_binding x fr <> None -> lookup_binding x (fr ++ o) = lookup_binding x fr.
Proof.
  induction fr as [|[id sc] fr IH]; cbn [lookup_binding app]; [congruence|].
  destruct (im_get N.eqb x sc); [reflexivity|exact IH].
Qed.

(** sequencing: the first run related over one stack, the continuation over another *)
Lemma sim_bind_gen {B C} o1 fr1 o fr (r r' : res (st * B)) (k k' : st * B -> res (st * C)) :
  sim o1 fr1 r r' ->
  (forall t v, r = Ok (t, v) -> scopes t = fr1 -> sim o fr (k (t, v)) (k' (app_outer t o1, v))) ->
  sim o fr (bind r k) (bind r' k').
Proof.
  intros H1 Hk. destruct r as [[t v]|x|p|]; cbn [sim bind] in *.
  - destruct H1 as [-> Ht]. cbn [bind]. apply Hk; [reflexivity|exact Ht].
  - rewrite H1. reflexivity.
  - destruct H1 as [-> | ->]; [left; reflexivity|right; reflexivity].
  - rewrite H1. reflexivity.
Qed.

Section LexHelpers.
  Variable o : list (N * scope).

  Lemma sim_bind fr B C (r r' : res (st * B)) (k k' : st * B -> res (st * C)) :
    sim o fr r r' ->
    (forall t v, scopes t = fr -> sim o fr (k (t, v)) (k' (app_outer t o, v))) ->
    sim o fr (bind r k) (bind r' k').
  Proof. intros H1 Hk. apply (sim_bind_gen o fr o fr _ _ _ _ H1). intros t v _. apply Hk. Qed.

  Lemma sim_pure {B C} fr (c : res B) (k k' : B -> res (st * C)) :
    (forall x, sim o fr (k x) (k' x)) -> sim o fr (bind c k) (bind c k').
  Proof.
    intros Hk. destruct c as [x|x|p|]; cbn [bind sim]; [apply Hk|reflexivity|right; reflexivity|reflexivity].
  Qed.

  Lemma sim_ok fr B (t : st) (v : B) : scopes t = fr -> sim o fr (Ok (t, v)) (Ok (app_outer t o, v)).
  Proof. intros H. split; [reflexivity|exact H]. Qed.

  (* the key of a [rec] node carries the identifier of the top scope: it is the same with [o]
     underneath only if there is a frame on top of [o], or no [o] *)
  Definition inv (fr : list (N * scope)) : Prop := fr <> [] \/ o = [].

  Lemma inv_cons f fr : inv (f :: fr).
  Proof. left. discriminate. Qed.

  Lemma top_outer s : inv (scopes s) -> top_scope_id (app_outer s o) = top_scope_id s.
  Proof.
    unfold top_scope_id, app_outer. cbn [scopes]. intros [Hne| ->].
    - destruct (scopes s); [contradiction|reflexivity].
    - rewrite app_nil_r. reflexivity.
  Qed.

  Lemma bind_args_sim ev ev' fr args :
    (forall s e, In e args -> scopes s = fr -> sim o fr (ev s e) (ev' (app_outer s o) e)) ->
    forall s ps sc, scopes s = fr ->
    sim o fr (bind_args ev s ps args sc) (bind_args ev' (app_outer s o) ps args sc).
  Proof.
    induction args as [|a args IH]; intros Hev s ps sc Hs.
    - destruct ps; apply sim_ok, Hs.
    - destruct ps as [|p ps]; [apply sim_ok, Hs|].
      cbn [bind_args]. apply sim_bind; [apply Hev; [left; reflexivity|exact Hs]|].
      intros t v Ht. apply IH; [intros s0 e He; apply Hev; right; exact He|exact Ht].
  Qed.

  Lemma map_st_sim {X B} (f f' : st -> X -> res (st * B)) fr l :
    (forall s x, In x l -> scopes s = fr -> sim o fr (f s x) (f' (app_outer s o) x)) ->
    forall s, scopes s = fr -> sim o fr (map_st f s l) (map_st f' (app_outer s o) l).
  Proof.
    intros Hf s Hs. rewrite <- (map_id l) at 2.
    apply map_st_cong with (sm := fun t => app_outer t o) (Inv := fun t => scopes t = fr) (R := fun B => @sim B o fr);
      [exact (sim_ok fr)|exact (sim_bind fr)|exact Hf|exact Hs].
  Qed.

  Lemma app_builtin_sim ev ev' fr s args a : scopes s = fr ->
    (forall s0 c, In c args -> scopes s0 = fr -> sim o fr (ev s0 c) (ev' (app_outer s0 o) c)) ->
    sim o fr (app_builtin ev s args a) (app_builtin ev' (app_outer s o) args a).
  Proof.
    intros Hs Hev. rewrite <- (map_id args) at 2.
    apply app_builtin_cong with (sm := fun t => app_outer t o) (Inv := fun t => scopes t = fr) (R := fun B => @sim B o fr) (g := fun e => e);
      try reflexivity; try assumption.
    - exact (sim_ok fr).
    - intros B p. right. reflexivity.
    - exact (sim_bind fr).
  Qed.
End LexHelpers.

Lemma bind_args_binds ev args : forall s ps sc t sc2,
  bind_args ev s ps args sc = Ok (t, sc2) -> (length ps <= length args)%nat ->
  forall x, (In x ps \/ im_get N.eqb x sc <> None) -> im_get N.eqb x sc2 <> None.
Proof.
  induction args as [|a args IH]; intros s ps sc t sc2 H Hlen x Hx.
  - destruct ps; [|cbn in Hlen; lia]. cbn in H. injection H as _ <-. destruct Hx as [[]|Hx]; exact Hx.
  - destruct ps as [|p ps].
    + cbn in H. injection H as _ <-. destruct Hx as [[]|Hx]; exact Hx.
    + cbn [bind_args] in H. destruct (ev s a) as [[s1 v]| | |]; cbn [bind] in H; try discriminate.
      cbn [length] in Hlen. apply (IH _ _ _ _ _ H); [lia|].
      destruct (N.eq_dec x p) as [->|Hne].
      * right. rewrite (im_get_insert_same N.eqb_eq). discriminate.
      * destruct Hx as [[Hx|Hx]|Hx]; [congruence|left; exact Hx|right; rewrite (im_get_insert_other N.eqb_eq) by exact Hne; exact Hx].
Qed.

Lemma closed_struct xs e : is_struct e = true -> closed xs e = forallb (closed xs) (subs e).
Proof.
  assert (O : forall o : option expr, forallb (closed xs) (opt_list o) = match o with Some d => closed xs d | None => true end)
    by (intros [d|]; [apply andb_true_r|reflexivity]).
  destruct e; try discriminate; intros _; cbn [closed subs forallb]; rewrite ?forallb_app, ?O, ?andb_true_r; try reflexivity.
  - (* ECont *) f_equal. induction metas as [|[k x] ms IH]; [reflexivity|]. cbn [forallb map snd]. rewrite IH. reflexivity.
  - (* EXfer *) cbn [forallb]. rewrite O, andb_assoc. reflexivity.
  - (* EUri *) f_equal. induction segs as [|[x|x] sg IH]; [reflexivity|exact IH|]. cbn [forallb flat_map app]. rewrite IH. reflexivity.
Qed.

(** one step, over a fixed caller stack [o] and a fixed stack [fr] of the lexical run *)
Section LexicalStep.
  Variable P : prog.
  Hypothesis HP : closed_prog P.
  Variable n : nat.
  Hypothesis IH : forall o s e a xs,
    closed xs e = true -> bound xs (scopes s) -> inv o (scopes s) ->
    sim o (scopes s) (eval true P n s e a) (eval false P n (app_outer s o) e a).
  Variables (o fr : list (N * scope)) (xs : list N).
  Hypothesis Hb : bound xs fr.
  Hypothesis Hi : inv o fr.

  Lemma IH_fr s e a : closed xs e = true -> scopes s = fr ->
    sim o fr (eval true P n s e a) (eval false P n (app_outer s o) e a).
  Proof. intros Hc Hs. rewrite <- Hs. apply (IH o s e a xs Hc); rewrite Hs; assumption. Qed.

  Lemma struct_sim s e a : is_struct e = true -> closed xs e = true -> scopes s = fr ->
    sim o fr (eval true P (S n) s e a) (eval false P (S n) (app_outer s o) e a).
  Proof.
    intros Es Hc Hs. rewrite (closed_struct xs e Es), forallb_forall in Hc. rewrite <- (emap_id e) at 2.
    apply eval_struct with (sm := fun t => app_outer t o) (Inv := fun t => scopes t = fr) (R := fun B => @sim B o fr);
      try reflexivity; try assumption.
    - exact (sim_ok o fr).
    - intros B p. right. reflexivity.
    - exact (sim_bind o fr).
    - intros c Hcs s0 Hs0. apply IH_fr; [apply Hc, Hcs|exact Hs0].
  Qed.

  Lemma decl_sim s m i a : scopes s = fr ->
    sim o fr (eval true P (S n) s (EDecl m i) a) (eval false P (S n) (app_outer s o) (EDecl m i) a).
  Proof.
    intros Hs. rewrite !eval_S. cbn [eval_step].
    destruct (get_decl P m i) as [d|] eqn:Hd; [|right; reflexivity].
    destruct (d_params d) as [|p ps] eqn:Hps; [|apply sim_ok, Hs].
    apply sim_pure. intros da.
    pose proof (HP m i d Hd) as Hcd. rewrite Hps in Hcd.
    assert (IHd : forall s0 a0, scopes s0 = fr ->
              sim o fr (eval true P n s0 (d_rhs d) a0) (eval false P n (app_outer s0 o) (d_rhs d) a0)).
    { intros s0 a0 Hs0. rewrite <- Hs0. apply (IH o s0 (d_rhs d) a0 [] Hcd); [intros x []|rewrite Hs0; exact Hi]. }
    destruct ((match d_ref d with Some _ => true | None => false end) || d_rec d); [|apply IHd, Hs].
    cbn [app_outer refs]. destruct (rget _ (refs s)) as [[v|]|]; try (apply sim_ok, Hs).
    apply sim_bind; [apply IHd, Hs|]. intros t v Ht. apply sim_ok, Ht.
  Qed.

  Lemma app_sim s f args a : closed xs f = true -> forallb (closed xs) args = true -> scopes s = fr ->
    sim o fr (eval true P (S n) s (EApp f args) a) (eval false P (S n) (app_outer s o) (EApp f args) a).
  Proof.
    intros Hcf Hca Hs. rewrite !eval_S. cbn [eval_step].
    apply sim_bind; [apply IH_fr; assumption|]. intros s1 fv Hs1. apply sim_pure. intros lam.
    assert (Hargs : forall s0 c, In c args -> scopes s0 = fr ->
              sim o fr (eval true P n s0 c []) (eval false P n (app_outer s0 o) c [])).
    { intros s0 c Hin Hs0. apply IH_fr; [|exact Hs0]. rewrite forallb_forall in Hca. apply Hca, Hin. }
    apply (lam_case2 (sim o fr)); [intros m i|apply app_builtin_sim; assumption].
    destruct (get_decl P m i) as [d|] eqn:Hd; [|right; reflexivity].
    eapply sim_bind_gen; [apply bind_args_sim; [exact Hargs|exact Hs1]|].
    intros s2 sc Eba Hs2. apply sim_pure. intros da.
    destruct (Nat.ltb_spec (length args) (length (d_params d))) as [Hlt|Hge]; [left; reflexivity|].
    assert (Hbd : bound (d_params d) [(seq s2 + 1, sc)]).
    { intros y Hy. cbn [lookup_binding].
      pose proof (bind_args_binds _ args s1 (d_params d) [] s2 sc Eba Hge y (or_introl Hy)) as Hy2.
      destruct (im_get N.eqb y sc); [discriminate|contradiction]. }
    (* the body runs on its own scope in the lexical run, on top of the whole stack in the code *)
    eapply sim_bind_gen; [apply IH with (o := scopes s2 ++ o) (xs := d_params d); [exact (HP m i d Hd)|exact Hbd|apply inv_cons]|].
    intros s3 r _ Hs3. cbn [scopes] in Hs3. split; [|exact Hs2].
    unfold pop_scope, app_outer. cbn [refs scopes seq]. rewrite Hs3. reflexivity.
  Qed.

  Lemma rec_sim s m i x e a : closed (x :: xs) e = true -> scopes s = fr ->
    sim o fr (eval true P (S n) s (ERec m i x e) a) (eval false P (S n) (app_outer s o) (ERec m i x e) a).
  Proof.
    intros Hc Hs. rewrite !eval_S. cbn [eval_step]. rewrite (top_outer o s) by (rewrite Hs; exact Hi).
    set (sc := [(x, (VRecur (KRec m i (top_scope_id s)), @nil (str * yaml)))]).
    assert (Hb2 : bound (x :: xs) (scopes (push_scope s sc))).
    { intros y [<-|Hy]; cbn [push_scope scopes lookup_binding sc im_get].
      - rewrite N.eqb_refl. discriminate.
      - destruct (N.eqb y x); [discriminate|]. rewrite Hs. apply Hb, Hy. }
    eapply sim_bind_gen; [apply IH with (s := push_scope s sc) (xs := x :: xs); [exact Hc|exact Hb2|apply inv_cons]|].
    intros s1 rhs _ Hs1. cbn [push_scope scopes] in Hs1.
    unfold pop_scope, app_outer, set_refs. cbn [refs scopes seq]. rewrite Hs1. cbn [tl app].
    split; [reflexivity|exact Hs].
  Qed.

  Lemma step_sim s e a : closed xs e = true -> scopes s = fr ->
    sim o fr (eval true P (S n) s e a) (eval false P (S n) (app_outer s o) e a).
  Proof.
    intros Hc Hs. destruct (is_struct e) eqn:Es; [apply struct_sim; assumption|].
    destruct e; try discriminate Es; clear Es; cbn [closed] in Hc.
    - (* ETerm *) rewrite !eval_S. cbn [eval_step]. apply sim_pure. intros x. apply IH_fr; assumption.
    - (* ESub *) rewrite !eval_S. cbn [eval_step]. apply IH_fr; assumption.
    - (* EDecl *) apply decl_sim, Hs.
    - (* EBind *)
      rewrite !eval_S. cbn [eval_step app_outer scopes].
      apply existsb_exists in Hc as (y & Hy & Hxy). apply N.eqb_eq in Hxy. subst y.
      rewrite lookup_app by (rewrite Hs; exact (Hb x Hy)).
      destruct (lookup_binding x (scopes s)) as [[v prev]|]; [apply sim_ok, Hs|right; reflexivity].
    - (* EApp *) apply andb_prop in Hc as [Hcf Hca]. apply app_sim; assumption.
    - (* ERec *) apply rec_sim; assumption.
  Qed.
End LexicalStep.

Section Lexical.
  Variable P : prog.
  Hypothesis HP : closed_prog P.

  Theorem eval_lexical : forall n o s e a xs,
    closed xs e = true -> bound xs (scopes s) -> inv o (scopes s) ->
    sim o (scopes s) (eval true P n s e a) (eval false P n (app_outer s o) e a).
  Proof.
    induction n as [|n IH]; intros o s e a xs Hc Hb Hi; [reflexivity|].
    apply (step_sim P HP n IH o (scopes s) xs Hb Hi); [exact Hc|reflexivity].
  Qed.
End Lexical.

Lemma app_outer_nil s : app_outer s [] = s.
Proof. destruct s as [r ss q]. unfold app_outer. cbn [refs scopes seq]. rewrite app_nil_r. reflexivity. Qed.

(** with nothing underneath, what follows a simulated run gives the same result *)
Lemma sim_nil_bind {B C} (r r' : res (st * B)) (k : st * B -> res C) : sim [] [] r r' ->
  match bind r k with
  | Panic p => p = P_arity \/ bind r' k = Panic p
  | x => bind r' k = x
  end.
Proof.
  intros H. destruct r as [[t v]|x|p|]; cbn [sim bind] in *.
  - destruct H as [-> _]. rewrite app_outer_nil. cbn [bind]. destruct (k (t, v)); auto.
  - rewrite H. reflexivity.
  - destruct H as [-> | ->]; auto.
  - rewrite H. reflexivity.
Qed.

(** whole programs: the code computes the result of the lexical semantics *)
Theorem eval_program_lexical P n rs :
  closed_prog P -> forallb (closed []) rs = true ->
  match eval_program true P n rs with
  | Panic p => p = P_arity \/ eval_program false P n rs = Panic p
  | r => eval_program false P n rs = r
  end.
Proof.
  intros HP Hrs. unfold eval_program. apply sim_nil_bind. apply map_st_sim with (fr := []); [|reflexivity].
  intros s x Hx Hs. apply sim_bind; [|intros t v Ht; apply sim_pure; intros rel; apply sim_ok, Ht].
  assert (E := eval_lexical P HP n [] s x [] []). rewrite Hs in E.
  apply E; [rewrite forallb_forall in Hrs; apply Hrs, Hx|intros y []|right; reflexivity].
Qed.

Lemma closed_progb_sound P : closed_progb P = true -> closed_prog P.
Proof.
  intros H m i d Hd. unfold get_decl in Hd.
  destruct (nth_error P (N.to_nat m)) as [ds|] eqn:Hm; [|discriminate].
  apply nth_error_In in Hm. apply nth_error_In in Hd.
  unfold closed_progb in H. rewrite forallb_forall in H. specialize (H ds Hm).
  rewrite forallb_forall in H. exact (H d Hd).
Qed.

(** * witnesses

    Identifiers and strings are interned numbers (7, 8: binders; 20: a property name; 30: a path
    segment); the fuel 50 is more than any of these evaluations uses. *)
Definition ex_P : prog :=
  [[ mk_decl None false [] [7] (EObj [EProp 20 None (ETerm [] (EBind 7))]);        (* let f x = { 'p x }; *)
     mk_decl None false [] [7] (EApp (EDecl 0 0) [ETerm [] (EBind 7)]) ]].         (* let g x = f x;      *)
Definition ex_rs : list expr :=
  [ERel (ETerm [] (EUri [inl 30] None))
        [EXfer [0] None (ECont (Some (EApp (EDecl 0 1) [ETerm [] (EPrim 1)])) []) None]].   (* res /a on get -> <g int>; *)

(** non-vacuity: a closed program that evaluates to a document under both semantics *)
Lemma ex_closed_evaluates :
  closed_progb ex_P = true /\ forallb (closed []) ex_rs = true /\
  exists r, eval_program true ex_P 50 ex_rs = Ok r /\ eval_program false ex_P 50 ex_rs = Ok r.
Proof. split; [reflexivity|]. split; [reflexivity|]. eexists. split; vm_compute; reflexivity. Qed.

(** the hypothesis is needed: on a tree that is not lexically closed (which name resolution
    rejects) the stack machine of the code finds the caller's binding, the lexical semantics
    does not *)
Definition ex_open : prog :=
  [[ mk_decl None false [] [8] (EObj [EProp 20 None (ETerm [] (EBind 7))]);        (* let f y = { 'p x };  x is not bound *)
     mk_decl None false [] [7] (EApp (EDecl 0 0) [ETerm [] (EPrim 3)]) ]].         (* let g x = f str;     *)
Lemma open_tree_is_dynamic :
  closed_progb ex_open = false /\
  eval_program true ex_open 50 ex_rs = Panic P_binding /\
  exists r, eval_program false ex_open 50 ex_rs = Ok r.
Proof. split; [reflexivity|]. split; [vm_compute; reflexivity|]. eexists. vm_compute. reflexivity. Qed.

(** non-vacuity of the renaming theorem: a renaming that swaps the two binder names in use *)
Lemma ex_rename_changes_tree :
  let rho := fun x : N => if N.eqb x 7 then 8 else if N.eqb x 8 then 7 else x in
  ren_prog rho ex_P <> ex_P /\ eval_program false (ren_prog rho ex_P) 50 (map (ren rho) ex_rs) = eval_program false ex_P 50 ex_rs.
Proof. cbv zeta. split; [discriminate|vm_compute; reflexivity]. Qed.
