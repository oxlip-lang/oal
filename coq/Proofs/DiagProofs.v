(** After every refresh the client shows, for every locator, exactly the errors of the
    compilation just made: nothing stale survives, whatever the history of stores and
    compilations before it. Hence two histories that end with the same store and the same
    errors leave the client with the same diagnostics (history independence), in particular
    the history of a fresh server handed the final texts. The pinned code (before F7) is
    refuted by a witness. *)
From Oal Require Import Diag ListFacts.
From Coq Require Import Lia.

(** [dtouch], [dpush] and [vset] all change the entry of one key, creating it from the empty
    list if absent *)
Fixpoint dalter (g : list diag -> list diag) (l : loc) (m : dmap) : dmap :=
  match m with
  | [] => [(l, g [])]
  | (l', ds) :: m' => if N.eqb l l' then (l', g ds) :: m' else (l', ds) :: dalter g l m'
  end.

Lemma dtouch_alter l m : dtouch l m = dalter (fun ds => ds) l m.
Proof. induction m as [|[k ds] m IH]; cbn [dtouch dalter]; [|rewrite IH]; reflexivity. Qed.

Lemma dpush_alter l d m : dpush l d m = dalter (fun ds => ds ++ [d]) l m.
Proof. induction m as [|[k ds] m IH]; cbn [dpush dalter]; [|rewrite IH]; reflexivity. Qed.

Lemma vset_alter l x v : vset l x v = dalter (fun _ => x) l v.
Proof. induction v as [|[k ds] v IH]; cbn [vset dalter]; [|rewrite IH]; reflexivity. Qed.

Lemma dget_dalter g l k m :
  dget k (dalter g l m) = if N.eqb k l then Some (g (match dget l m with Some ds => ds | None => [] end)) else dget k m.
Proof.
  induction m as [|[j ds] m IH]; cbn [dalter dget]; [destruct (N.eqb k l); reflexivity|].
  destruct (N.eqb_spec l j) as [->|Hlj]; cbn [dget].
  - destruct (N.eqb k j); reflexivity.
  - rewrite IH. destruct (N.eqb_spec k j) as [->|Hkj]; [|reflexivity].
    destruct (N.eqb_spec j l); [congruence|reflexivity].
Qed.

Lemma touch_all ks : forall m l,
  dget l (fold_left (fun m k => dtouch k m) ks m) =
  match dget l m with Some ds => Some ds | None => if existsb (N.eqb l) ks then Some [] else None end.
Proof.
  induction ks as [|k ks IH]; intros m l; cbn [fold_left existsb]; [destruct (dget l m); reflexivity|].
  rewrite IH, dtouch_alter, dget_dalter.
  destruct (N.eqb l k) eqn:E; cbn [orb]; [apply N.eqb_eq in E; subst l; destruct (dget k m)|]; reflexivity.
Qed.

Lemma push_all errs : forall m l,
  dget l (fold_left (fun m ld => dpush (fst ld) (snd ld) m) errs m) =
  match dget l m, errs_of l errs with
  | Some ds, es => Some (ds ++ es)
  | None, [] => None
  | None, es => Some es
  end.
Proof.
  induction errs as [|[k d] errs IH]; intros m l; cbn [fold_left errs_of filter map fst snd].
  - destruct (dget l m); [rewrite app_nil_r|]; reflexivity.
  - rewrite IH, dpush_alter, dget_dalter. cbn [fst snd]. rewrite (N.eqb_sym l k).
    destruct (N.eqb_spec k l) as [->|Hne]; fold (errs_of l errs); [|reflexivity].
    cbn [map snd]. destruct (dget l m) as [ds|]; [rewrite <- app_assoc|]; reflexivity.
Qed.

Lemma batch_entry docs reported errs l :
  dget l (fst (diagnostics docs reported errs)) =
  if existsb (N.eqb l) docs || existsb (N.eqb l) reported || match errs_of l errs with [] => false | _ => true end
  then Some (errs_of l errs) else None.
Proof.
  unfold diagnostics. cbn [fst]. rewrite push_all, touch_all, touch_all. cbn [dget].
  destruct (existsb (N.eqb l) docs); cbn [orb]; [reflexivity|].
  destruct (existsb (N.eqb l) reported); cbn [orb]; [reflexivity|].
  destruct (errs_of l errs); reflexivity.
Qed.

Lemma dget_in l ds m : dget l m = Some ds -> In (l, ds) m.
Proof.
  induction m as [|[k x] m IH]; cbn [dget]; [discriminate|]. destruct (N.eqb_spec l k) as [->|Hne]; [intros [= <-]; left; reflexivity|].
  intros H. right. apply IH, H.
Qed.

Lemma batch_reported docs reported errs l :
  errs_of l errs <> [] -> In l (snd (diagnostics docs reported errs)).
Proof.
  intros H. pose proof (batch_entry docs reported errs l) as E.
  destruct (errs_of l errs) as [|e es] eqn:Ee; [contradiction|]. rewrite !orb_true_r in E.
  unfold diagnostics in *. cbn [fst snd] in *. apply dget_in in E.
  apply (in_map fst _ (l, e :: es)), filter_In. split; [exact E|reflexivity].
Qed.

Lemma vget_vset l k ds v : vget (vset k ds v) l = if N.eqb l k then ds else vget v l.
Proof. unfold vget. rewrite vset_alter, dget_dalter. destruct (N.eqb l k); reflexivity. Qed.

Definition keys_unique (b : dmap) : Prop := NoDup (map fst b).

Lemma apply_batch_get b : forall v l, keys_unique b ->
  vget (apply_batch v b) l = match dget l b with Some ds => ds | None => vget v l end.
Proof.
  unfold apply_batch. induction b as [|[k ds] b IH]; intros v l Hu; cbn [fold_left dget fst snd]; [reflexivity|].
  inversion Hu as [|? ? Hk Hb]; subst. rewrite IH, vget_vset by exact Hb.
  destruct (N.eqb_spec l k) as [->|Hne]; [|reflexivity].
  destruct (dget k b) as [x|] eqn:E; [|reflexivity].
  destruct (Hk (in_map fst b (k, x) (dget_in k x b E))).
Qed.

Lemma dalter_keys g l m k : In k (map fst (dalter g l m)) -> k = l \/ In k (map fst m).
Proof.
  induction m as [|[j ds] m IH]; cbn [dalter map fst In]; [intros [<-|[]]; left; reflexivity|].
  destruct (N.eqb l j); cbn [map fst In]; tauto.
Qed.

Lemma dalter_unique g l m : keys_unique m -> keys_unique (dalter g l m).
Proof.
  unfold keys_unique. induction m as [|[j ds] m IH]; intros Hu; cbn [dalter map fst].
  - constructor; [intros []|constructor].
  - inversion Hu as [|? ? Hj Hm]; subst. destruct (N.eqb_spec l j) as [->|Hne]; cbn [map fst]; [exact Hu|].
    constructor; [|exact (IH Hm)].
    intros Hin. apply dalter_keys in Hin as [->|Hin]; [apply Hne; reflexivity|exact (Hj Hin)].
Qed.

Lemma batch_unique docs reported errs : keys_unique (fst (diagnostics docs reported errs)).
Proof.
  unfold diagnostics. cbn [fst].
  apply fold_left_inv; [intros m ld; rewrite dpush_alter; apply dalter_unique|].
  apply fold_left_inv; [intros m k; rewrite dtouch_alter; apply dalter_unique|].
  apply fold_left_inv; [intros m k; rewrite dtouch_alter; apply dalter_unique|]. constructor.
Qed.

(* what the bookkeeping keeps: a locator for which the client shows something is remembered as reported *)
Definition inv (st : sc) : Prop := forall l, vget (s_view st) l <> [] -> In l (s_reported st).

Theorem refresh_exact st docs errs : inv st ->
  (forall l, vget (s_view (refresh st docs errs)) l = errs_of l errs) /\ inv (refresh st docs errs).
Proof.
  intros Hinv. unfold refresh. rewrite (surjective_pairing (diagnostics docs (s_reported st) errs)).
  assert (Hget : forall l, vget (apply_batch (s_view st) (fst (diagnostics docs (s_reported st) errs))) l = errs_of l errs).
  { intros l. rewrite apply_batch_get, batch_entry by apply batch_unique.
    destruct (existsb (N.eqb l) docs); [reflexivity|].
    destruct (existsb (N.eqb l) (s_reported st)) eqn:E; [reflexivity|].
    destruct (errs_of l errs); [cbn [orb]|reflexivity].
    (* not reported before: the client showed nothing *)
    destruct (vget (s_view st) l) as [|x xs] eqn:Ev; [reflexivity|]. exfalso.
    apply not_true_iff_false in E. apply E, existsb_exists. exists l.
    split; [apply Hinv; rewrite Ev; discriminate|apply N.eqb_refl]. }
  split; [exact Hget|]. intros l Hl. cbn [s_view s_reported] in *. rewrite Hget in Hl. apply batch_reported, Hl.
Qed.

(** any history of refreshes, each with its own store and errors *)
Fixpoint run (st : sc) (h : list (list loc * list (loc * diag))) : sc :=
  match h with [] => st | (docs, errs) :: h' => run (refresh st docs errs) h' end.

Definition fresh : sc := mk_sc [] [].

Lemma inv_fresh : inv fresh.
Proof. intros l H. exfalso. apply H. reflexivity. Qed.

Lemma run_inv h : forall st, inv st -> inv (run st h).
Proof. induction h as [|[docs errs] h IH]; intros st H; cbn [run]; [exact H|]. apply IH, refresh_exact, H. Qed.

Lemma run_snoc h : forall st docs errs, run st (h ++ [(docs, errs)]) = refresh (run st h) docs errs.
Proof. induction h as [|[d e] h IH]; intros st docs errs; cbn [app run]; [reflexivity|apply IH]. Qed.

Theorem diagnostics_track_current_errors h docs errs l :
  vget (s_view (run fresh (h ++ [(docs, errs)]))) l = errs_of l errs.
Proof. rewrite run_snoc. apply refresh_exact, run_inv, inv_fresh. Qed.

(** history independence: the client of a server with any history shows what the client of a
    fresh server shows after one refresh on the same store and errors *)
Corollary diagnostics_history_independent h docs errs l :
  vget (s_view (run fresh (h ++ [(docs, errs)]))) l = vget (s_view (run fresh [(docs, errs)])) l.
Proof. rewrite diagnostics_track_current_errors. symmetry. apply (diagnostics_track_current_errors []). Qed.

(** the pinned code: a document with an error is closed and no longer part of the program *)
Lemma pinned_keeps_stale_diagnostics :
  exists docs1 errs1 docs2 errs2 l,
    vget (apply_batch (apply_batch [] (diagnostics_pinned docs1 errs1)) (diagnostics_pinned docs2 errs2)) l <> errs_of l errs2.
Proof. exists [1%N; 2%N], [(2%N, 7%N)], [1%N], [], 2%N. vm_compute. discriminate. Qed.

Example ex_refresh_clears :
  let st1 := refresh fresh [1%N; 2%N] [(2%N, 7%N); (3%N, 8%N)] in
  let st2 := refresh st1 [1%N] [] in
  (vget (s_view st1) 2%N, vget (s_view st1) 3%N, s_reported st1) = ([7%N], [8%N], [2%N; 3%N]) /\
  (vget (s_view st2) 2%N, vget (s_view st2) 3%N, s_reported st2) = ([], [], []).
Proof. vm_compute. split; reflexivity. Qed.

Lemma errs_of_nonempty errs : errs <> [] <-> exists l, errs_of l errs <> [].
Proof.
  split.
  - destruct errs as [|[l d] errs]; [intros H; contradiction|]. intros _. exists l. unfold errs_of. cbn [filter fst]. rewrite N.eqb_refl. cbn [map]. discriminate.
  - intros [l H] E. subst. apply H. reflexivity.
Qed.

Lemma shown_iff_error (shown : loc -> list diag) errs :
  (forall l, shown l = errs_of l errs) -> (exists l, shown l <> []) <-> errs <> [].
Proof. intros Hv. rewrite errs_of_nonempty. split; intros [l H]; exists l; [rewrite <- Hv|rewrite Hv]; exact H. Qed.

Theorem diagnostic_iff_error st docs errs : inv st ->
  (exists l, vget (s_view (refresh st docs errs)) l <> []) <-> errs <> [].
Proof. intros Hinv. apply shown_iff_error, refresh_exact, Hinv. Qed.
