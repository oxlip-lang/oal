(** Reference closure stated on the JSON document itself: wherever the document the builder
    model makes has a member ["$ref": <string>], at any depth, the string is
    "#/components/schemas/" followed by a key of the document's own [components.schemas].
    The occurrence relation [jref_in] is a plain traversal of the JSON value: it knows nothing
    of the builder. User-chosen keys (property, header, media type, example names) may be the
    text "$ref", but their values are objects, never strings, and so are not references. *)
From Oal Require Import Eval Builder ClosureProofs AssocFacts BuilderProofs.
Local Open Scope N_scope.

(** [t] is the string value of a "$ref" member somewhere in the JSON value *)
Inductive jref_in (t : text) : json -> Prop :=
| ri_here m : In (T_ref, JStr t) m -> jref_in t (JObj m)
| ri_obj m k v : In (k, v) m -> jref_in t v -> jref_in t (JObj m)
| ri_arr l v : In v l -> jref_in t v -> jref_in t (JArr l).

Definition schema_names (doc : json) : list text :=
  match doc with
  | JObj m => match get T_components m with
              | Some (JObj c) => match get T_schemas c with Some (JObj s) => map fst s | _ => [] end
              | _ => []
              end
  | _ => []
  end.

Definition resolves (doc : json) (t : text) : Prop := exists n, t = T_refprefix ++ n /\ In n (schema_names doc).

Section Closure.
  Variable strs : N -> text.
  Variable table : list (rkey * schema).
  Variable names : list text.

  (** the references the builder may write: the names of the entries it keeps as components *)
  Definition allowed_ref (t : text) : Prop :=
    exists k i s, key_pos k table 0 = Some (i, s) /\ kept strs k s = true /\ t = T_refprefix ++ untagged (name_at names i).

  Definition clean (j : json) : Prop := forall t, jref_in t j -> allowed_ref t.
  Definition okm (kv : text * json) : Prop :=
    clean (snd kv) /\ (forall t, snd kv = JStr t -> fst kv = T_ref -> allowed_ref t).
  (** clean and not a string: fine as a member's value under any key, "$ref" included *)
  Definition cleanv (j : json) : Prop := clean j /\ forall t, j <> JStr t.

  Lemma clean_obj m : Forall okm m -> clean (JObj m).
  Proof.
    intros H t Hin. rewrite Forall_forall in H. inversion Hin as [m' Hm|m' k v Hm Hv|]; subst.
    - destruct (H _ Hm) as [_ Hs]. apply (Hs t); reflexivity.
    - destruct (H _ Hm) as [Hc _]. apply Hc, Hv.
  Qed.
  Lemma clean_arr l : Forall clean l -> clean (JArr l).
  Proof. intros H t Hin. rewrite Forall_forall in H. inversion Hin as [| |l' v Hl Hv]; subst. apply (H v Hl), Hv. Qed.
  Lemma clean_str t : clean (JStr t).   Proof. intros t' H. inversion H. Qed.
  Lemma clean_int z : clean (JInt z).   Proof. intros t' H. inversion H. Qed.
  Lemma clean_flt z : clean (JFlt z).   Proof. intros t' H. inversion H. Qed.
  Lemma clean_bool b : clean (JBool b). Proof. intros t' H. inversion H. Qed.
  Lemma clean_jnum n : clean (jnum n).  Proof. destruct n; [apply clean_int|apply clean_flt]. Qed.
  Lemma clean_jstr s : clean (jstr strs s).  Proof. apply clean_str. Qed.
  Lemma clean_arr_map {A} (f : A -> json) l : (forall a, clean (f a)) -> clean (JArr (map f l)).
  Proof. intros H. apply clean_arr, Forall_forall. intros x Hx. apply in_map_iff in Hx as (y & <- & _). apply H. Qed.

  Lemma cleanv_obj m : Forall okm m -> cleanv (JObj m).
  Proof. intros H. split; [apply clean_obj, H|discriminate]. Qed.

  Lemma okm_val k v : cleanv v -> okm (k, v).
  Proof. intros [Hc Hn]. split; [exact Hc|]. intros t E. destruct (Hn t E). Qed.
  Lemma okm_key k v : k <> T_ref -> clean v -> okm (k, v).
  Proof. intros Hk Hc. split; [exact Hc|]. intros t' _ E. destruct (Hk E). Qed.

  Lemma okm_jopt k o : k <> T_ref -> (forall v, o = Some v -> clean v) -> Forall okm (jopt k o).
  Proof. intros Hk Hc. destruct o as [v|]; cbn [jopt]; constructor; [|constructor]. apply okm_key; [exact Hk|apply Hc; reflexivity]. Qed.

  Lemma okm_jopt_map {A} k (f : A -> json) (o : option A) : k <> T_ref -> (forall a, clean (f a)) -> Forall okm (jopt k (option_map f o)).
  Proof. intros Hk Hf. apply okm_jopt; [exact Hk|]. intros v E. destruct o as [a|]; [injection E as <-; apply Hf|discriminate E]. Qed.

  Lemma okm_unless_nil {A} (l : list A) k v : k <> T_ref -> clean v -> Forall okm (match l with [] => [] | _ => [(k, v)] end).
  Proof. intros Hk Hv. destruct l; constructor; [apply okm_key; assumption|constructor]. Qed.

  Lemma Forall_app_intro {A} (Q : A -> Prop) l1 l2 : Forall Q l1 -> Forall Q l2 -> Forall Q (l1 ++ l2).
  Proof. intros H1 H2. apply Forall_app. split; assumption. Qed.

  (** a member list written out in the builder is fine field by field: no key but that of
      [jref] is "$ref", and every value is clean by one of the lemmas above or by hypothesis.
      The depth [auto] needs is the position of the last member that is not a hypothesis,
      plus the nesting of the objects and arrays written out in its value. *)
  Create HintDb okm.
  #[local] Hint Resolve Forall_nil Forall_cons Forall_app_intro okm_key okm_jopt_map okm_unless_nil
    clean_obj clean_arr clean_arr_map clean_str clean_int clean_bool clean_jnum clean_jstr : okm.
  #[local] Hint Extern 1 (_ <> T_ref) => discriminate : okm.

  Lemma put_okm k v m : Forall okm m -> cleanv v -> Forall okm (put k v m).
  Proof. intros Hm Hv. apply put_Forall; [exact Hm|apply okm_val, Hv]. Qed.

  Lemma fold_put_okm items acc : Forall okm acc -> Forall (fun kv : text * json => cleanv (snd kv)) items ->
    Forall okm (fold_left (fun m kv => put (fst kv) (snd kv) m) items acc).
  Proof.
    intros Ha Hi. apply fold_put_Forall; [exact Ha|]. eapply Forall_impl; [|exact Hi]. intros [k v]. apply okm_val.
  Qed.

  Lemma with_meta_clean fs d t : Forall okm fs -> cleanv (with_meta strs fs d t).
  Proof. intros H. apply cleanv_obj. auto with okm. Qed.

  Lemma uri_fields_ok u : Forall okm (uri_fields strs u).
  Proof.
    destruct u as [path prm ex]. cbn [uri_fields]. apply Forall_app_intro; [auto 4 with okm|].
    destruct ex; [|destruct path]; cbn [jopt]; auto 3 with okm.
  Qed.

  Lemma atomic_fields_ok e : match atomic_fields strs e with Some fs => Forall okm fs | None => True end.
  Proof.
    destruct e as [mn mx mo ex0|pat en fmt ex0 mnl mxl| |mn mx mo ex0|[u xs]|u|i|ps|op ss|k]; cbn [atomic_fields]; try exact I.
    - auto 6 with okm.
    - destruct ex0; [|destruct en]; cbn [jopt]; auto 9 with okm.
    - auto 3 with okm.
    - auto 6 with okm.
    - apply uri_fields_ok.
    - apply uri_fields_ok.
  Qed.

  Lemma atomic_json_clean s j : atomic_json strs s = Some j -> cleanv j.
  Proof.
    destruct s as [e d t r x]. unfold atomic_json. pose proof (atomic_fields_ok e) as Hfs.
    destruct (atomic_fields strs e) as [fs|]; [|discriminate]. intros [= <-]. apply with_meta_clean, Hfs.
  Qed.

  Lemma jref_clean k i s : key_pos k table 0 = Some (i, s) -> kept strs k s = true -> cleanv (jref names i).
  Proof.
    intros Hk Hkept. apply cleanv_obj. constructor; [|constructor]. split; [apply clean_str|].
    intros t E _. cbn [snd] in E. injection E as <-. exists k, i, s. repeat split; assumption.
  Qed.

  Lemma reference_clean k j : reference_json strs table names k = Some j -> cleanv j.
  Proof.
    unfold reference_json. destruct (key_pos k table 0) as [[i s]|] eqn:Hk; [|discriminate].
    destruct (is_named k) eqn:En.
    - intros [= <-]. apply (jref_clean k i s Hk). unfold kept. rewrite En. reflexivity.
    - destruct (atomic_json strs s) as [a|] eqn:Ea; intros [= <-]; [apply (atomic_json_clean s a Ea)|].
      apply (jref_clean k i s Hk). unfold kept. rewrite En, Ea. reflexivity.
  Qed.

  Notation sj := (schema_json strs table names).

  Lemma schema_clean s : forall j, sj s = Some j -> cleanv j.
  Proof.
    induction s as [e desc title req ex IH] using schema_nested_ind. intros j H.
    destruct e as [mn mx mo ex0|pat en fmt ex0 mnl mxl| |mn mx mo ex0|r|u|i|ps|op ss|k]; cbn [schema_json] in H;
      try apply (atomic_json_clean _ _ H).
    - (* SArr *)
      destruct (sj i) as [ij|] eqn:Ei; [|discriminate H]. injection H as <-. destruct (IH ij eq_refl) as [Hc _].
      apply with_meta_clean. auto 4 with okm.
    - (* SObj *)
      destruct (oall _) as [props|] eqn:Ep; [|discriminate H]. injection H as <-. apply with_meta_clean.
      assert (Hprops : Forall okm props).
      { apply (oall_map_forall _ _ _ _ Ep). rewrite Forall_forall in IH. intros [n sp d r] y Hp Ey.
        destruct (sj sp) as [j0|] eqn:E0; [|discriminate Ey]. injection Ey as <-. apply okm_val, (IH _ Hp j0 E0). }
      assert (Hreq : clean (JArr (map (fun p => JStr (strs (prop_name p))) (filter prop_required ps))))
        by (apply clean_arr_map; intros p; apply clean_str).
      apply clean_obj in Hprops. clear - Hprops Hreq. auto 4 with okm.
    - (* SOp *)
      destruct (oall (map sj ss)) as [js|] eqn:Es; [|discriminate H].
      assert (Hjs : Forall clean js).
      { apply (oall_map_forall _ _ _ _ Es). rewrite Forall_forall in IH. intros s0 y Hs0 Ey. apply (IH _ Hs0 y Ey). }
      destruct op; injection H as <-; apply with_meta_clean; auto 4 with okm.
    - (* SRef *)
      apply (reference_clean k j H).
  Qed.

  Lemma param_clean w st rq p j : param_json strs table names w st rq p = Some j -> cleanv j.
  Proof.
    destruct p as [n s d r]. cbn [param_json]. intros H. apply obind_Some in H as (j0 & E & [= <-]).
    destruct (schema_clean s j0 E) as [Hc _]. apply cleanv_obj. destruct rq; auto 8 with okm.
  Qed.

  Lemma header_clean p kv : header_json strs table names p = Some kv -> cleanv (snd kv).
  Proof.
    destruct p as [n s d r]. cbn [header_json]. intros H. apply obind_Some in H as (j0 & E & [= <-]).
    destruct (schema_clean s j0 E) as [Hc _]. apply cleanv_obj. destruct r as [[|]|]; auto 6 with okm.
  Qed.

  Lemma params_clean w st (rq : property -> bool) ps js :
    oall (map (fun p => param_json strs table names w st (rq p) p) ps) = Some js -> Forall clean js.
  Proof. intros H. apply (oall_map_forall _ clean ps js H). intros p j _ E. apply (param_clean _ _ _ p j E). Qed.

  Lemma uri_params_clean u js : uri_params_json strs table names u = Some js -> Forall clean js.
  Proof.
    destruct u as [path prm ex]. cbn [uri_params_json]. intros H.
    apply oall_app in H as (a & b & Ha & Hb & ->). apply Forall_app_intro.
    - apply Forall_forall. intros j Hj. apply (oall_in _ _ _ Ha), in_flat_map in Hj as ([l|p] & _ & Hj); [destruct Hj|].
      destruct Hj as [Hj|[]]. apply (param_clean T_path T_simple true p j Hj).
    - apply (params_clean T_query T_form own_required _ _ Hb).
  Qed.

  Lemma content_examples_ok c : Forall okm (content_examples strs c).
  Proof.
    destruct c as [s st media hd desc ex]. cbn [content_examples].
    destruct (match ex with Some e => Some e | None => match s with Some (Schema _ _ _ _ se) => se | None => None end end) as [l|]; [|constructor].
    apply Forall_forall. intros x Hx. apply in_map_iff in Hx as (kv & <- & _).
    apply okm_val, cleanv_obj. auto 3 with okm.
  Qed.

  Lemma media_clean c j0 : clean j0 -> cleanv (media_json strs c j0).
  Proof.
    intros Hc. apply cleanv_obj. pose proof (content_examples_ok c) as He.
    destruct (content_examples strs c); auto 5 with okm.
  Qed.

  Lemma request_clean d o : request_json strs table names d = Some o -> forall j, o = Some j -> clean j.
  Proof.
    destruct d as [[s|] st media hd desc ex]; cbn [request_json]; [|intros [= <-] j E; discriminate E].
    intros H j Ej. apply obind_Some in H as (j0 & E0 & [= <-]). injection Ej as <-.
    destruct (schema_clean s j0 E0) as [Hc _]. pose proof (okm_val (media_of strs media) _ (media_clean (Content (Some s) st media hd desc ex) j0 Hc)).
    auto 6 with okm.
  Qed.

  Definition resp_ok (r : resp) : Prop := Forall okm (r_content r) /\ Forall okm (r_headers r).

  Lemma add_content_ok r c r' : resp_ok r -> add_content strs table names r c = Some r' -> resp_ok r'.
  Proof.
    intros [Hrc Hrh]. destruct c as [s st media hd desc ex]. cbn [add_content]. intros H.
    apply obind_Some in H as (cont & Ec & H). apply obind_Some in H as (hs & Eh & [= <-]).
    split; cbn [r_content r_headers].
    - destruct s as [sc|]; [|injection Ec as <-; exact Hrc].
      apply obind_Some in Ec as (j0 & E0 & [= <-]). destruct (schema_clean sc j0 E0) as [Hc _].
      apply put_okm; [exact Hrc|apply media_clean, Hc].
    - apply fold_put_okm; [exact Hrh|]. apply (oall_map_forall _ _ _ _ Eh). intros p kv _ Ekv. apply (header_clean p kv Ekv).
  Qed.

  Lemma responses_ok rg : forall acc rs, Forall (fun kr => resp_ok (snd kr)) acc ->
    responses strs table names rg acc = Some rs -> Forall (fun kr => resp_ok (snd kr)) rs.
  Proof.
    induction rg as [|[[st media] c] rg IH]; intros acc rs Ha H; cbn [responses] in H; [injection H as <-; exact Ha|].
    apply obind_Some in H as (r' & Ea & H). eapply IH; [|exact H]. apply put_Forall; [exact Ha|].
    eapply add_content_ok; [|exact Ea].
    destruct (get (status_key st) acc) as [r|] eqn:Eg; [|split; constructor].
    rewrite Forall_forall in Ha. apply (Ha _ (get_in _ _ _ Eg)).
  Qed.

  Lemma resp_json_clean r : resp_ok r -> cleanv (resp_json r).
  Proof.
    intros [Hc Hh]. apply cleanv_obj. destruct (r_headers r), (r_content r); auto 6 with okm.
  Qed.

  Lemma responses_json_clean rg j : responses_json strs table names rg = Some j -> clean j.
  Proof.
    unfold responses_json. intros H. apply obind_Some in H as (rs & E & [= <-]).
    pose proof (responses_ok rg [] rs (Forall_nil _) E) as Hrs. rewrite Forall_forall in Hrs. apply clean_obj.
    apply Forall_forall. intros x Hx. apply in_map_iff in Hx as (kr & <- & Hin).
    apply okm_val, resp_json_clean, Hrs.
    apply in_app_or in Hin as [Hin|Hin]; apply filter_In in Hin as [Hin _]; exact Hin.
  Qed.

  Lemma operation_clean u m t j : operation_json strs table names u m t = Some j -> cleanv j.
  Proof.
    destruct t as [ms dom rg prm desc summ tags id]. cbn [operation_json]. intros H.
    apply obind_Some in H as (params & Ep & H). apply obind_Some in H as (rb & Er & H). apply obind_Some in H as (rs & Es & [= <-]).
    apply cleanv_obj.
    assert (Hparams : clean (JArr params)).
    { apply clean_arr. apply oall_app in Ep as (a & b & Ha & Hb & ->). apply Forall_app_intro.
      - apply (params_clean T_query T_form own_required _ _ Ha).
      - apply (params_clean T_header T_simple own_required _ _ Hb). }
    pose proof (okm_jopt T_requestBody rb ltac:(discriminate) (request_clean dom rb Er)) as Hrb.
    pose proof (responses_json_clean rg rs Es) as Hrs.
    clear - Hparams Hrb Hrs. auto 9 with okm.
  Qed.

  Lemma ops_clean u xs : forall m l, ops_json strs table names u xs m = Some l ->
    Forall (fun kv : text * json => cleanv (snd kv)) l.
  Proof.
    induction xs as [|[t|] xs IH]; intros m l H; cbn [ops_json] in H; [injection H as <-; constructor| |apply (IH _ _ H)].
    apply obind_Some in H as (oj & Eo & H). apply obind_Some in H as (r & Er & [= <-]).
    constructor; [apply (operation_clean u m t oj Eo)|apply (IH _ _ Er)].
  Qed.

  Lemma path_item_clean r kv : path_item_json strs table names r = Some kv -> cleanv (snd kv).
  Proof.
    destruct r as [u xs]. cbn [path_item_json]. intros H.
    apply obind_Some in H as (params & Ep & H). apply obind_Some in H as (ops & Eo & [= <-]). cbn [snd].
    apply cleanv_obj, Forall_app_intro.
    - eapply Forall_impl; [|exact (ops_clean u xs _ _ Eo)]. intros [k v]. apply okm_val.
    - pose proof (clean_arr _ (uri_params_clean u params Ep)) as Hp. destruct params; auto 3 with okm.
  Qed.

  Lemma paths_clean rels j : paths_json strs table names rels = Some j -> clean j.
  Proof.
    unfold paths_json. intros H. apply obind_Some in H as (items & E & [= <-]).
    apply clean_obj. apply fold_put_okm; [constructor|].
    apply (oall_map_forall _ _ _ _ E). intros r kv _ Ekv. apply (path_item_clean r kv Ekv).
  Qed.

  Lemma components_clean : forall l i acc cs, Forall okm acc -> components strs table names l i acc = Some cs -> Forall okm cs.
  Proof.
    induction l as [|[k s] l IH]; intros i acc cs Ha H; [injection H as <-; exact Ha|]. rewrite components_cons in H.
    destruct (kept strs k s); [|apply (IH _ _ _ Ha H)].
    apply obind_Some in H as (j0 & E0 & H). apply (IH _ _ _ (put_okm _ _ _ Ha (schema_clean s j0 E0)) H).
  Qed.

  Lemma components_obj_clean cs : components strs table names table 0 [] = Some cs -> clean (JObj cs).
  Proof. intros H. apply clean_obj. exact (components_clean _ _ _ _ (Forall_nil _) H). Qed.

  Lemma allowed_ref_emitted t cs : allowed_ref t -> components strs table names table 0 [] = Some cs ->
    exists n, t = T_refprefix ++ n /\ In n (map fst cs).
  Proof.
    intros (k & i & s & Hk & Hkept & ->) Hc. exists (untagged (name_at names i)). split; [reflexivity|].
    eapply kept_component_emitted; eassumption.
  Qed.

  Theorem document_refs_resolve rels doc :
    document strs table names rels = Some doc -> forall t, jref_in t doc -> resolves doc t.
  Proof.
    unfold document. intros H. apply obind_Some in H as (ps & Ep & H). apply obind_Some in H as (cs & Ec & [= <-]). intros t Hin.
    assert (HR : allowed_ref t).
    { revert t Hin. pose proof (paths_clean rels ps Ep) as Hps.
      pose proof (components_obj_clean cs Ec) as Hcs.
      apply clean_obj. clear - Hps Hcs. auto 10 with okm. }
    destruct (allowed_ref_emitted t cs HR Ec) as (n & -> & Hn). exists n. split; [reflexivity|].
    unfold schema_names. rewrite !get_cons_other, get_cons_same by discriminate.
    destruct cs as [|c0 cs']; [destruct Hn|]. rewrite get_cons_same. exact Hn.
  Qed.
End Closure.

Theorem evaluated_document_closed strs names P n rs rels table :
  eval_program false P n rs = Ok (rels, table) ->
  exists doc, document strs table names rels = Some doc /\ forall t, jref_in t doc -> resolves doc t.
Proof.
  intros H. destruct (builder_never_panics strs names P n rs rels table H) as [doc Hd].
  exists doc. split; [exact Hd|]. apply (document_refs_resolve _ _ _ _ _ Hd).
Qed.

(** non-vacuity: a recursive component; its document has a reference, which resolves *)
Example ex_table : list (rkey * schema) :=
  [(KNamed 1, Schema (SArr (Schema (SRef (KNamed 1)) None None None None)) None None None None)].
Example ex_doc_has_ref :
  exists doc, document (fun _ => []) ex_table [[64; 97]] [] = Some doc /\
              jref_in (T_refprefix ++ [97]) doc /\ schema_names doc = [[97]].
Proof.
  exists (JObj [(T_openapi, JStr T_v303); (T_info, JObj [(T_title, JStr T_deftitle); (T_version, JStr T_v010)]);
                (T_servers, JArr [JObj [(T_url, JStr T_slash)]]); (T_paths, JObj []);
                (T_components, JObj [(T_schemas, JObj [([97], JObj [(T_type, JStr T_array); (T_items, jref [[64; 97]] 0)])])])]).
  split; [reflexivity|]. split; [|reflexivity].
  eapply ri_obj; [apply (get_in T_components); reflexivity|]. eapply ri_obj; [apply (get_in T_schemas); reflexivity|].
  eapply ri_obj; [apply (get_in [97]); reflexivity|]. eapply ri_obj; [apply (get_in T_items); reflexivity|].
  apply ri_here. left. reflexivity.
Qed.
