(** Proofs about Model/SpecUri.v (property C03). *)
From Coq Require Import Lia.
From Oal Require Import SpecUri.

Lemma braces_lit l : forall r, no_char LB l = true -> braces (l ++ r) None = braces r None.
Proof.
  induction l as [|c l IH]; intros r H; [reflexivity|].
  cbn [no_char forallb] in H. apply andb_true_iff in H. destruct H as [Hc Hl].
  cbn [app braces]. apply negb_true_iff in Hc. rewrite Hc. apply IH. exact Hl.
Qed.

Lemma braces_name n : forall acc r, no_char RB n = true ->
  braces (n ++ RB :: r) (Some acc) = rev (rev n ++ acc) :: braces r None.
Proof.
  induction n as [|c n IH]; intros acc r H.
  - cbn [app braces rev]. rewrite N.eqb_refl. reflexivity.
  - cbn [no_char forallb] in H. apply andb_true_iff in H. destruct H as [Hc Hn].
    cbn [app braces]. apply negb_true_iff in Hc. rewrite Hc. rewrite IH by exact Hn.
    cbn [rev]. rewrite <- app_assoc. reflexivity.
Qed.

(** the {variables} readable in the path key are exactly the path parameters, in order *)
Theorem path_params_match segs :
  forallb wf_seg segs = true -> braces (pattern segs) None = path_params segs.
Proof.
  induction segs as [|s segs IH]; intros H; [reflexivity|].
  cbn [forallb] in H. apply andb_true_iff in H. destruct H as [Hs Hr].
  assert (E : N.eqb SLASH LB = false) by reflexivity.
  destruct s as [l|n]; cbn [pattern path_params braces]; rewrite E.
  - rewrite braces_lit by exact Hs. apply IH, Hr.
  - rewrite N.eqb_refl. rewrite braces_name by exact Hs. rewrite app_nil_r, rev_involutive.
    f_equal. apply IH, Hr.
Qed.

Theorem number_status_valid v s : status_of_number v = Some s -> valid_key (response_key (Some s)) = true.
Proof.
  unfold status_of_number. destruct (N.leb 100 v && N.leb v 599) eqn:E; [|discriminate].
  intros H. inversion H; subst. exact E.
Qed.

Theorem literal_status_valid c s : status_of_literal c = Some s -> valid_key (response_key (Some s)) = true.
Proof.
  unfold status_of_literal. destruct (N.leb 49 c && N.leb c 53) eqn:E; [|discriminate].
  intros H. inversion H; subst. cbn. apply andb_true_iff in E. destruct E as [A B].
  apply N.leb_le in A. apply N.leb_le in B. apply andb_true_iff. split; apply N.leb_le; lia.
Qed.

Theorem default_key_valid : valid_key (response_key None) = true.
Proof. reflexivity. Qed.

Theorem out_of_range_rejected v : v < 100 \/ 599 < v -> status_of_number v = None.
Proof.
  intros H. unfold status_of_number.
  destruct (N.leb_spec 100 v); destruct (N.leb_spec v 599); cbn; try reflexivity; lia.
Qed.

(** K6: a path variable and a literal of the same spelling give the same derived operationId
    although the paths differ *)
Lemma operation_ids_refuted :
  exists m p q, pattern p <> pattern q /\ xfer_id m p = xfer_id m q.
Proof.
  exists [103; 101; 116], [SLit [97]; SVar [98]], [SLit [97]; SLit [98]].
  split; [discriminate|reflexivity].
Qed.
