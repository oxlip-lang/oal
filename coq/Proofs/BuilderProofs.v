(** The document builder never panics on the Spec of a successful evaluation: every
    [expect("reference should exist")] finds its reference, because the evaluator's Spec is
    closed (ClosureProofs.spec_closed), and the [unreachable!()] arms are excluded by the type
    of schema operations. Hence evaluation followed by the builder is total on every program
    whose evaluation succeeds. *)
From Oal Require Import Eval Builder ClosureProofs AssocFacts.
From Coq Require Import Lia.
Local Open Scope N_scope.

(** induction on schemas through the items, members and operands the builder descends into *)
Lemma schema_nested_ind (Q : schema -> Prop) :
  (forall e d t r x,
      match e with
      | SArr i => Q i
      | SObj ps => Forall (fun p => match p with Prop_ _ s _ _ => Q s end) ps
      | SOp _ ss => Forall Q ss
      | _ => True
      end -> Q (Schema e d t r x)) ->
  forall s, Q s.
Proof.
  intros H. fix IH 1. intros [e d t r x]. apply H. destruct e as [| | | | | |i|ps|op ss|]; try exact I.
  - apply IH.
  - induction ps as [|[n s d0 r0] ps IHps]; constructor; [apply IH|exact IHps].
  - induction ss as [|s ss IHss]; constructor; [apply IH|exact IHss].
Qed.

Section Builder.
  Variable strs : N -> text.
  Variable table : list (rkey * schema).
  Variable names : list text.

  Definition present (k : rkey) : Prop := exists i s, key_pos k table 0 = Some (i, s).

  Lemma key_pos_in k : forall l i, In k (map fst l) -> exists j s, key_pos k l i = Some (j, s).
  Proof.
    induction l as [|[k' s] l IH]; intros i Hin; [destruct Hin|].
    cbn [key_pos]. destruct (rkey_eqb k k') eqn:E; [eexists _, _; reflexivity|].
    destruct Hin as [Hk|Hin]; [cbn [fst] in Hk; subst; rewrite rkey_eqb_refl in E; discriminate|apply IH, Hin].
  Qed.

  Lemma atomic_or_not s : (exists j, atomic_json strs s = Some j) \/ atomic_json strs s = None.
  Proof. destruct (atomic_json strs s); [left; eexists; reflexivity|right; reflexivity]. Qed.

  Lemma reference_total k : present k -> exists j, reference_json strs table names k = Some j.
  Proof.
    intros (i & s & H). unfold reference_json. rewrite H.
    destruct (is_named k); [eexists; reflexivity|]. destruct (atomic_json strs s); eexists; reflexivity.
  Qed.

  Notation sj := (schema_json strs table names).

  Lemma schema_total s : sub (ks_schema s) present -> exists j, sj s = Some j.
  Proof.
    induction s as [e desc title req ex IH] using schema_nested_ind. cbn [ks_schema]. intros Hs.
    destruct e as [mn mx mo ex0|pat en fmt ex0 mnl mxl| |mn mx mo ex0|r|u|i|ps|op ss|k]; cbn [schema_json ks_sexpr] in *;
      try (unfold atomic_json; cbn [atomic_fields]; try destruct r; eexists; reflexivity).
    - destruct (IH Hs) as [j ->]. eexists. reflexivity.
    - apply sub_flat_map in Hs. rewrite Forall_forall in Hs, IH.
      match goal with |- context [oall (map ?f ps)] => destruct (oall_map_total f ps) as [props ->]; [|eexists; reflexivity] end.
      intros [n sp d r] Hp. destruct (IH _ Hp (Hs _ Hp)) as [j ->]. eexists. reflexivity.
    - apply sub_flat_map in Hs. rewrite Forall_forall in Hs, IH.
      destruct (oall_map_total sj ss) as [js ->]; [|destruct op; eexists; reflexivity].
      intros s0 Hs0. apply (IH _ Hs0 (Hs _ Hs0)).
    - apply reference_total. apply Hs. left. reflexivity.
  Qed.

  Lemma schema_then_total {B} s (g : json -> B) : sub (ks_schema s) present -> exists y, obind (sj s) (fun j => Some (g j)) = Some y.
  Proof. intros H. destruct (schema_total s H) as [j ->]. eexists. reflexivity. Qed.

  Lemma param_total w st rq p : sub (ks_property p) present -> exists j, param_json strs table names w st rq p = Some j.
  Proof. destruct p as [n s d r]. apply schema_then_total. Qed.

  Lemma header_total p : sub (ks_property p) present -> exists j, header_json strs table names p = Some j.
  Proof. destruct p as [n s d r]. apply schema_then_total. Qed.

  Lemma oprops_total {B} (f : property -> option B) o :
    (forall p, sub (ks_property p) present -> exists j, f p = Some j) ->
    sub (ks_oprops o) present -> exists js, oall (map f (oprops o)) = Some js.
  Proof.
    intros Hf Hs. apply oall_map_total. intros p Hp. apply Hf.
    destruct o as [ps|]; [|destruct Hp]. apply sub_flat_map in Hs. rewrite Forall_forall in Hs. apply Hs, Hp.
  Qed.

  Lemma uri_params_total u : sub (ks_uri u) present -> exists js, uri_params_json strs table names u = Some js.
  Proof.
    destruct u as [path prm ex]. cbn [ks_uri uri_params_json]. intros H. apply sub_app in H as [Hp Hq].
    apply oall_app_total.
    - apply sub_flat_map in Hp. rewrite Forall_forall in Hp. apply oall_total. intros o Ho.
      apply in_flat_map in Ho as ([l|p] & Hsg & Ho); [destruct Ho|]. destruct Ho as [<-|[]]. apply param_total, (Hp _ Hsg).
    - apply oprops_total; [intros p; apply param_total|exact Hq].
  Qed.

  Lemma request_total d : sub (ks_content d) present -> exists o, request_json strs table names d = Some o.
  Proof.
    destruct d as [[s|] st media hd desc ex]; cbn [request_json]; [|eexists; reflexivity].
    cbn [ks_content]. intros H. apply sub_app in H as [Hs _]. apply schema_then_total, Hs.
  Qed.

  Lemma add_content_total r c : sub (ks_content c) present -> exists r', add_content strs table names r c = Some r'.
  Proof.
    destruct c as [s st media hd desc ex]. cbn [ks_content add_content]. intros H. apply sub_app in H as [Hs Hh].
    apply obind_total; [destruct s as [sc|]; [destruct (schema_total sc Hs) as [j ->]|]; eexists; reflexivity|intros cont].
    apply obind_total; [|intros hs; eexists; reflexivity].
    apply oprops_total; [exact header_total|exact Hh].
  Qed.

  Lemma responses_total rg : forall acc, sub (ks_ranges rg) present -> exists rs, responses strs table names rg acc = Some rs.
  Proof.
    induction rg as [|[[st media] c] rg IH]; intros acc H; cbn [responses]; [eexists; reflexivity|].
    unfold ks_ranges in H. cbn [flat_map snd] in H. apply sub_app in H as [Hc Hr].
    destruct (add_content_total (match get (status_key st) acc with Some r => r | None => mk_resp [] [] [] end) c Hc) as [r' ->].
    cbn [obind]. apply IH, Hr.
  Qed.

  Lemma operation_total u m t : sub (ks_transfer t) present -> exists j, operation_json strs table names u m t = Some j.
  Proof.
    destruct t as [ms dom rg prm desc summ tags id]. rewrite ks_transfer_eq. intros H.
    apply sub_app in H as [Hd H]. apply sub_app in H as [Hr Hp]. cbn [operation_json].
    apply obind_total; [|intros ps].
    { apply oall_app_total.
      - apply oprops_total; [intros p; apply param_total|exact Hp].
      - apply oprops_total; [intros p; apply param_total|].
        destruct dom as [s st media hd d ex]. cbn [ks_content] in Hd. apply sub_app in Hd as [_ Hh]. exact Hh. }
    apply obind_total; [apply request_total, Hd|intros rb]. apply obind_total; [|intros rs; eexists; reflexivity].
    unfold responses_json. destruct (responses_total rg [] Hr) as [rs ->]. eexists. reflexivity.
  Qed.

  Lemma ops_total u xs : forall m, sub (ks_xfers xs) present -> exists l, ops_json strs table names u xs m = Some l.
  Proof.
    induction xs as [|[t|] xs IH]; intros m H; cbn [ops_json]; [eexists; reflexivity| |].
    - unfold ks_xfers in H. cbn [flat_map] in H. apply sub_app in H as [Ht Hx].
      destruct (operation_total u m t Ht) as [j ->]. cbn [obind]. destruct (IH (S m) Hx) as [l ->]. eexists. reflexivity.
    - unfold ks_xfers in H. cbn [flat_map app] in H. apply IH, H.
  Qed.

  Lemma path_item_total r : sub (ks_relation r) present -> exists kv, path_item_json strs table names r = Some kv.
  Proof.
    destruct r as [u xs]. cbn [ks_relation path_item_json]. intros H. apply sub_app in H as [Hu Hx].
    destruct (uri_params_total u Hu) as [ps ->]. cbn [obind].
    destruct (ops_total u xs 0%nat Hx) as [l ->]. eexists. reflexivity.
  Qed.

  Lemma paths_total rels : sub (flat_map ks_relation rels) present -> exists j, paths_json strs table names rels = Some j.
  Proof.
    intros H. unfold paths_json.
    apply sub_flat_map in H. rewrite Forall_forall in H.
    destruct (oall_map_total (path_item_json strs table names) rels) as [items ->]; [|eexists; reflexivity].
    intros r Hr. apply path_item_total, H, Hr.
  Qed.

  (** an entry of the table becomes a component unless it is implicit and atomic (then it is inlined) *)
  Definition kept (k : rkey) (s : schema) : bool :=
    negb (negb (is_named k) && match atomic_json strs s with Some _ => true | None => false end).

  Lemma components_cons k s l i acc :
    components strs table names ((k, s) :: l) i acc =
    if kept k s then obind (sj s) (fun j => components strs table names l (S i) (put (untagged (name_at names i)) j acc))
    else components strs table names l (S i) acc.
  Proof. cbn [components]. unfold kept. destruct (negb (is_named k) && _); reflexivity. Qed.

  Lemma components_total : forall l i acc,
    (forall k s, In (k, s) l -> sub (ks_schema s) present) -> exists cs, components strs table names l i acc = Some cs.
  Proof.
    induction l as [|[k s] l IH]; intros i acc H; [eexists; reflexivity|]. rewrite components_cons.
    assert (Hl : forall k' s', In (k', s') l -> sub (ks_schema s') present) by (intros k' s' Hin; apply (H k' s'); right; exact Hin).
    destruct (kept k s); [|apply IH, Hl].
    destruct (schema_total s (H k s (or_introl eq_refl))) as [j ->]. apply IH, Hl.
  Qed.

  Theorem document_total rels :
    sub (flat_map ks_relation rels) present ->
    (forall k s, In (k, s) table -> sub (ks_schema s) present) ->
    exists j, document strs table names rels = Some j.
  Proof.
    intros Hr Ht. unfold document. destruct (paths_total rels Hr) as [ps ->]. cbn [obind].
    destruct (components_total table 0%nat [] Ht) as [cs ->]. eexists. reflexivity.
  Qed.

  Lemma key_pos_nth k : forall l i j s, key_pos k l i = Some (j, s) -> exists d, j = (i + d)%nat /\ nth_error l d = Some (k, s).
  Proof.
    induction l as [|[k' s'] l IH]; intros i j s H; [discriminate|]. cbn [key_pos] in H.
    destruct (rkey_eqb k k') eqn:E.
    - apply rkey_eqb_eq in E. subst k'. injection H as <- <-. exists 0%nat. split; [lia|reflexivity].
    - destruct (IH (S i) j s H) as (d & -> & Hd). exists (S d). split; [lia|exact Hd].
  Qed.

  Lemma reference_of_kept k i s :
    key_pos k table 0 = Some (i, s) ->
    reference_json strs table names k = if kept k s then Some (jref names i) else atomic_json strs s.
  Proof.
    intros H. unfold reference_json, kept. rewrite H. destruct (is_named k); [reflexivity|].
    destruct (atomic_json strs s); reflexivity.
  Qed.

  Lemma reference_is_ref_iff_kept k i s :
    key_pos k table 0 = Some (i, s) ->
    (kept k s = true -> reference_json strs table names k = Some (jref names i)) /\
    (kept k s = false -> reference_json strs table names k = atomic_json strs s).
  Proof. intros H. rewrite (reference_of_kept k i s H). split; intros ->; reflexivity. Qed.

  Lemma components_keep : forall l i acc cs, components strs table names l i acc = Some cs ->
    forall k', In k' (map fst acc) -> In k' (map fst cs).
  Proof.
    induction l as [|[k s] l IH]; intros i acc cs H k' Hin; [injection H as <-; exact Hin|]. rewrite components_cons in H.
    destruct (kept k s); [|eapply IH; eassumption].
    apply obind_Some in H as (j & _ & H). eapply IH; [exact H|]. apply put_keys_in. right. exact Hin.
  Qed.

  Lemma components_emit : forall l i acc cs, components strs table names l i acc = Some cs ->
    forall d k s, nth_error l d = Some (k, s) -> kept k s = true -> In (untagged (name_at names (i + d))) (map fst cs).
  Proof.
    induction l as [|[k0 s0] l IH]; intros i acc cs H d k s Hd Hk; [destruct d; discriminate Hd|].
    rewrite components_cons in H. destruct d as [|d]; cbn [nth_error] in Hd.
    - injection Hd as -> ->. rewrite Hk in H. apply obind_Some in H as (j & _ & H).
      rewrite Nat.add_0_r. eapply components_keep; [exact H|]. apply put_keys_in. left. reflexivity.
    - replace (i + S d)%nat with (S i + d)%nat by lia.
      destruct (kept k0 s0); [|eapply IH; eassumption].
      apply obind_Some in H as (j & _ & H). eapply IH; eassumption.
  Qed.

  Lemma kept_component_emitted k i s cs :
    key_pos k table 0 = Some (i, s) -> kept k s = true -> components strs table names table 0 [] = Some cs ->
    In (untagged (name_at names i)) (map fst cs).
  Proof.
    intros Hk Hkept Hc. destruct (key_pos_nth k table 0 i s Hk) as (d & -> & Hd).
    eapply components_emit; eassumption.
  Qed.

  (** every $ref the builder writes names a component it emits *)
  Theorem refs_name_emitted_components k i s cs :
    key_pos k table 0 = Some (i, s) -> reference_json strs table names k = Some (jref names i) -> kept k s = true ->
    components strs table names table 0 [] = Some cs ->
    In (untagged (name_at names i)) (map fst cs).
  Proof. intros Hk _. apply kept_component_emitted, Hk. Qed.
End Builder.

Theorem builder_never_panics strs names P n rs rels table :
  eval_program false P n rs = Ok (rels, table) ->
  exists j, document strs table names rels = Some j.
Proof.
  intros H. destruct (spec_closed P n rs rels table H) as [Hr Ht].
  apply document_total.
  - intros k Hk. exact (key_pos_in k table 0%nat (Hr k Hk)).
  - intros k s Hin k' Hk'. exact (key_pos_in k' table 0%nat (Ht k s Hin k' Hk')).
Qed.
