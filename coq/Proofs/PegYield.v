(** The yield theorem (property C11): for every grammar, token list and fuel, the leaves of
    the matches returned by the parser are exactly the non-trivia tokens between the start
    cursor and the returned cursor, in source order, each once; cursors only move forward and
    always rest on a non-trivia token or at the end. *)
From Coq Require Import Lia Arith PeanoNat.
From Oal Require Import ListFacts Peg PegProofs.

Section Yield.
Variable class_ok : N -> N -> bool.
Variable is_trivia : N -> bool.
Variable K_IDENT_REF : N.
Variable g : nat -> pexp.
Variable toks : list N.

Notation run := (Peg.run class_ok is_trivia K_IDENT_REF g toks).
Notation skip := (Peg.skip is_trivia toks).
Notation kind_at := (Peg.kind_at toks).

Definition nontriv_at (i : nat) : bool :=
  match kind_at i with Some k => negb (is_trivia k) | None => false end.

(** the non-trivia token indices in [s, e) *)
Definition ntriv (s e : nat) : list nat := filter nontriv_at (seq s (e - s)).

Definition aligned (s : nat) : Prop := length toks <= s \/ nontriv_at s = true.

Lemma ntriv_refl s : ntriv s s = [].
Proof. unfold ntriv. rewrite Nat.sub_diag. reflexivity. Qed.

Lemma ntriv_app s m e : s <= m -> m <= e -> ntriv s e = ntriv s m ++ ntriv m e.
Proof.
  intros H1 H2. unfold ntriv. rewrite <- filter_app. f_equal.
  replace (e - s) with ((m - s) + (e - m)) by lia. rewrite seq_app. f_equal. f_equal. lia.
Qed.

Lemma ntriv_head s e : s < e -> ntriv s e = (if nontriv_at s then [s] else []) ++ ntriv (S s) e.
Proof.
  intros H. unfold ntriv. replace (e - s) with (S (e - S s)) by lia. cbn [seq filter].
  destruct (nontriv_at s); reflexivity.
Qed.

Lemma skip_from_spec : forall rest s,
  skipn s toks = rest -> s + length rest = length toks ->
  let r := skip_from is_trivia rest s in aligned r /\ ntriv s r = [].
Proof.
  induction rest as [|k rest IH]; intros s Hs Hlen; cbn [skip_from].
  - cbn [length] in Hlen. split; [left; lia|apply ntriv_refl].
  - apply skipn_eq_cons in Hs as [Hs' Hk]. cbn [length] in Hlen.
    assert (Hn : nontriv_at s = negb (is_trivia k)) by (unfold nontriv_at, Peg.kind_at; rewrite Hk; reflexivity).
    destruct (is_trivia k).
    + destruct (IH (S s) Hs' ltac:(lia)) as [C D]. split; [exact C|].
      pose proof (skip_from_bounds is_trivia rest (S s)). rewrite ntriv_head by lia. rewrite Hn. exact D.
    + split; [right; exact Hn|apply ntriv_refl].
Qed.

Lemma skip_spec s : s <= length toks ->
  s <= skip s /\ skip s <= length toks /\ aligned (skip s) /\ ntriv s (skip s) = [].
Proof.
  intros H. destruct (skip_bounds is_trivia toks s H) as [A B].
  destruct (skip_from_spec (skipn s toks) s eq_refl) as [C D]; [rewrite skipn_length; lia|]. auto.
Qed.

Lemma leaves_of_app a b : leaves_of (a ++ b) = leaves_of a ++ leaves_of b.
Proof. unfold leaves_of. apply flat_map_app. Qed.

Lemma leaves_of_node k m : leaves_of [Node k m] = leaves_of m.
Proof. unfold leaves_of. cbn [flat_map leaves]. apply app_nil_r. Qed.

Lemma leaves_of_collapse k m : leaves_of (collapse k m) = leaves_of m.
Proof. destruct m as [|x [|y m]]; cbn [collapse]; try apply leaves_of_node. reflexivity. Qed.

(** the matches [ms] are the non-trivia tokens of [s, s'), and [s'] is a cursor again *)
Definition covers (s s' : nat) (ms : list tree) : Prop :=
  s <= s' /\ s' <= length toks /\ aligned s' /\ leaves_of ms = ntriv s s'.

Lemma covers_nil s : aligned s -> s <= length toks -> covers s s [].
Proof. intros Ha Hs. repeat split; auto. rewrite ntriv_refl. reflexivity. Qed.

(** what follows a first part starts where that part ended, which is a cursor again *)
Lemma covers_app s s1 s2 m1 m2 :
  covers s s1 m1 -> (aligned s1 -> s1 <= length toks -> covers s1 s2 m2) -> covers s s2 (m1 ++ m2).
Proof.
  intros (A1 & B1 & C1 & D1) H2. destruct (H2 C1 B1) as (A2 & B2 & C2 & D2). repeat split; try lia; [exact C2|].
  rewrite leaves_of_app, D1, D2. symmetry. apply ntriv_app; lia.
Qed.

Lemma covers_leaves s s' ms ms' : leaves_of ms' = leaves_of ms -> covers s s' ms -> covers s s' ms'.
Proof. intros E (A & B & C & D). repeat split; try assumption. rewrite E. exact D. Qed.

Lemma covers_tok s k : aligned s -> kind_at s = Some k -> covers s (skip (S s)) [Leaf s].
Proof.
  intros Ha Ek. pose proof (kind_at_lt toks s k Ek) as Hlt.
  destruct (skip_spec (S s) ltac:(lia)) as (A & B & C & D).
  repeat split; try lia; [exact C|].
  rewrite (ntriv_app s (S s)) by lia. rewrite D, app_nil_r.
  rewrite ntriv_head by lia. rewrite ntriv_refl, app_nil_r.
  destruct Ha as [Ha|Ha]; [lia|]. rewrite Ha. reflexivity.
Qed.

Theorem yield : forall n p s acc s' ms,
  aligned s -> s <= length toks -> run n p s acc = Ok s' ms ->
  s <= s' /\ s' <= length toks /\ aligned s' /\ leaves_of ms = ntriv s s'.
Proof.
  enough (G : forall n p s acc s' ms, run n p s acc = Ok s' ms -> aligned s -> s <= length toks -> covers s s' ms)
    by (intros n p s acc s' ms Ha Hs H; exact (G n p s acc s' ms H Ha Hs)).
  apply (run_Ok_ind _ _ _ _ _ (fun _ s _ s' ms => aligned s -> s <= length toks -> covers s s' ms)); auto.
  - intros s _. apply covers_nil.
  - intros c s _ k Ek _ Ha _. exact (covers_tok s k Ha Ek).
  - intros a b s acc s1 m1 s2 m2 H1 H2 Ha Hs. exact (covers_app s s1 s2 m1 m2 (H1 Ha Hs) H2).
  - intros k a s _ s' ms H Ha Hs. apply (covers_leaves s s' ms); [apply leaves_of_node|exact (H Ha Hs)].
  - intros k a s _ s' ms H Ha Hs. apply (covers_leaves s s' ms); [apply leaves_of_collapse|exact (H Ha Hs)].
  - intros a b s acc s1 m1 s2 m2 H1 H2 Ha Hs. exact (covers_app s s1 s2 m1 m2 (H1 Ha Hs) H2).
  - intros _ _ s _. apply covers_nil.
  - intros s _. apply covers_nil.
Qed.

(** a whole parse starts at the first non-trivia token: the leaves of the tree are all the
    non-trivia tokens before the end cursor *)
Corollary yield_from_head n p s' ms :
  run n p (skip 0) [] = Ok s' ms ->
  skip 0 <= s' /\ s' <= length toks /\ leaves_of ms = ntriv 0 s'.
Proof.
  intros H. destruct (skip_spec 0 ltac:(lia)) as (A & B & C & D).
  destruct (yield _ _ _ _ _ _ C B H) as (A1 & B1 & C1 & D1).
  repeat split; try assumption. rewrite D1. rewrite (ntriv_app 0 (skip 0) s') by lia. rewrite D. reflexivity.
Qed.

Lemma ntriv_increasing s e : forall i j a b, i < j ->
  nth_error (ntriv s e) i = Some a -> nth_error (ntriv s e) j = Some b -> a < b.
Proof.
  unfold ntriv. generalize (e - s). intros len. revert s.
  induction len as [|len IH]; intros s i j a b Hij Ea Eb; cbn [seq filter] in *.
  - destruct i; discriminate.
  - assert (Hge : forall x k, nth_error (filter nontriv_at (seq (S s) len)) k = Some x -> S s <= x).
    { intros x k Hk. apply nth_error_In in Hk. apply filter_In in Hk. destruct Hk as [Hk _]. apply in_seq in Hk. lia. }
    destruct (nontriv_at s).
    + destruct i as [|i]; destruct j as [|j]; cbn [nth_error] in *; try lia.
      * inversion Ea; subst. specialize (Hge _ _ Eb). lia.
      * eapply (IH (S s) i j); try eassumption; lia.
    + eapply (IH (S s) i j); eassumption.
Qed.

Lemma ntriv_sorted s e : forall i j, nth_error (ntriv s e) i <> None -> nth_error (ntriv s e) j <> None -> i < j ->
  forall a b, nth_error (ntriv s e) i = Some a -> nth_error (ntriv s e) j = Some b -> a < b.
Proof. intros i j _ _ Hij a b. apply ntriv_increasing, Hij. Qed.
End Yield.
