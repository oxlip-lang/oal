(** Completeness of the unifier: a system that has a solution is never rejected, and the
    substitution the unifier builds is most general with respect to every solution (each
    solution of the system still satisfies it). With soundness and termination: a system is
    accepted exactly when it is solvable ([C07_full]). *)
From Oal Require Import ListFacts Tag Unify UnifyProofs UnifyTerm.
From Coq Require Import Lia Arith.

(** simultaneous substitution by a valuation of the variables *)
Fixpoint inst (sg : N -> tag) (t : tag) : tag :=
  match t with
  | TVar v => sg v
  | TFunc bs r => TFunc (map (inst sg) bs) (inst sg r)
  | TProperty t' => TProperty (inst sg t')
  | TBase _ => t
  end.

Definition sat (sg : N -> tag) (s : subst) : Prop := forall v u, In (v, u) s -> sg v = inst sg u.

Lemma inst_apply_one sg v u : sg v = inst sg u -> forall t, inst sg (apply_one v u t) = inst sg t.
Proof.
  intros H. induction t as [x|x IH|xs x IHxs IHx|y] using tag_ind'; cbn [apply_one inst].
  - reflexivity.
  - f_equal. exact IH.
  - f_equal; [|exact IHx]. rewrite map_map. apply map_ext_Forall, IHxs.
  - destruct (N.eqb_spec y v) as [->|_]; [symmetry; exact H|reflexivity].
Qed.

Lemma inst_apply sg s : sat sg s -> forall t, inst sg (apply s t) = inst sg t.
Proof.
  induction s as [|[v u] s IH]; intros Hs t; [reflexivity|].
  cbn [apply]. rewrite inst_apply_one by (apply Hs; left; reflexivity).
  apply IH. intros v0 u0 Hin. apply Hs. right. exact Hin.
Qed.

Lemma tsize_pos t : 1 <= tsize t.
Proof. destruct t; cbn [tsize]; lia. Qed.

Lemma occurs_size sg v : forall t, occurs v t = true -> t = TVar v \/ tsize (sg v) < tsize (inst sg t).
Proof.
  induction t as [x|x IH|xs x IHxs IHx|y] using tag_ind'; intros H; cbn [inst tsize].
  - discriminate.
  - right. destruct (IH H) as [->|IH']; [cbn [inst]|]; lia.
  - right. apply occurs_func_iff in H as (b & Hin & Hb).
    pose proof (Forall_cons x IHx IHxs) as IHs. rewrite Forall_forall in IHs.
    pose proof (sum_in tsize (map (inst sg) (x :: xs)) (inst sg b) (in_map _ _ _ Hin)) as Hsum. cbn [map fold_right] in Hsum.
    destruct (IHs b Hin Hb) as [->|IH']; [cbn [inst] in *|]; lia.
  - left. apply N.eqb_eq in H. congruence.
Qed.

(** what a solution [sg] of the equation asks of the answer: no error, and a substitution that
    [sg] still satisfies; an answer cut short by the fuel says nothing *)
Definition good (sg : N -> tag) (res : ures) : Prop :=
  match res with UErr _ => False | UOk s' => sat sg s' | UFuel => True end.

Lemma unify_all_complete_if sg n :
  (forall s l r, TRI s -> sat sg s -> inst sg l = inst sg r -> good sg (unify n s l r)) ->
  forall eqs s i, TRI s -> sat sg s -> Forall (fun e => inst sg (fst e) = inst sg (snd e)) eqs ->
  good sg (fst (unify_all n s eqs i)).
Proof.
  intros Hu. induction eqs as [|[l r] eqs IH]; intros s i Htri Hs Hall; [exact Hs|].
  inversion Hall as [|? ? Hh Ht]; subst. rewrite unify_all_cons.
  pose proof (Hu s l r Htri Hs Hh) as G.
  destruct (unify n s l r) as [s'|e|] eqn:E; cbn [good fst] in *; [|contradiction|exact I].
  apply IH; [exact (unify_TRI n s l r s' Htri E)|exact G|exact Ht].
Qed.

Lemma bind_good sg s v t : sat sg s -> sg v = inst sg t -> t <> TVar v -> good sg (bind s v t).
Proof.
  intros Hs Hv Hne. unfold bind. destruct (occurs v t) eqn:Eo; cbn [good].
  - destruct (occurs_size sg v t Eo) as [E|Hlt]; [contradiction|]. rewrite Hv in Hlt. lia.
  - intros v0 u0 [[= <- <-]|Hin]; [exact Hv|apply Hs, Hin].
Qed.

Theorem unify_complete sg : forall n s l r,
  TRI s -> sat sg s -> inst sg l = inst sg r -> good sg (unify n s l r).
Proof.
  induction n as [|n IH]; intros s l r Htri Hs Heq; [exact I|].
  rewrite unify_eq.
  destruct (reduce n s l) as [l'|] eqn:El; [|exact I]. destruct (reduce n s r) as [r'|] eqn:Er; [|exact I].
  destruct (reduce_apply s Htri _ _ _ El) as [El1 _]. destruct (reduce_apply s Htri _ _ _ Er) as [Er1 _].
  assert (Heq' : inst sg l' = inst sg r') by (rewrite El1, Er1, !inst_apply by exact Hs; exact Heq).
  destruct (unify_step_view s l' r') as (f & Hv & Hf). rewrite Hf. clear - IH Htri Hs Heq' Hv.
  destruct Hv as [t|v t Hne|v t Hne|a b|lbs lr rbs rr Hlen|lbs lr rbs rr Hlen|l' r' Hc]; cbn [inst] in Heq'; cbn beta.
  - exact Hs.
  - apply bind_good; assumption.
  - apply bind_good; [exact Hs|symmetry; exact Heq'|exact Hne].
  - injection Heq' as Hp. apply IH; assumption.
  - injection Heq' as Hbs _. apply (f_equal (@length tag)) in Hbs. rewrite !map_length in Hbs. contradiction.
  - injection Heq' as Hbs Hr. apply (unify_all_complete_if sg n IH); [exact Htri|exact Hs|].
    constructor; [exact Hr|apply (map_eq_combine (inst sg) lbs rbs Hlen), Hbs].
  - destruct l', r'; try contradiction Hc; cbn [inst] in Heq'; congruence.
Qed.

Theorem unify_all_complete sg : forall eqs n s i,
  TRI s -> sat sg s -> Forall (fun e => inst sg (fst e) = inst sg (snd e)) eqs ->
  good sg (fst (unify_all n s eqs i)).
Proof. intros eqs n. apply unify_all_complete_if, unify_complete. Qed.

(** a substitution, applied to the variables, is a valuation *)
Definition val_of (th : subst) (v : N) : tag := apply th (TVar v).

Lemma inst_val_of th : forall t, inst (val_of th) t = apply th t.
Proof.
  induction t as [x|x IH|xs x IHxs IHx|y] using tag_ind'; cbn [inst].
  - rewrite apply_base. reflexivity.
  - rewrite apply_property, IH. reflexivity.
  - rewrite apply_func, IHx. f_equal. apply map_ext_Forall, IHxs.
  - reflexivity.
Qed.

Lemma solved_accepted th eqs : solves th eqs -> exists n s j, unify_all n [] eqs 0 = (UOk s, j).
Proof.
  intros Hsol. destruct (unify_all_total eqs [] 0%N I) as [N HN]. specialize (HN N (le_n _)).
  assert (G : good (val_of th) (fst (unify_all N [] eqs 0))).
  { apply unify_all_complete; [exact I|intros v u []|].
    revert Hsol. apply Forall_impl. intros e He. rewrite !inst_val_of. exact He. }
  destruct (unify_all N [] eqs 0) as [[s|e|] j] eqn:E; [exists N, s, j; exact E|contradiction G|contradiction HN; reflexivity].
Qed.

Lemma acceptance_transfer eqs eqs' :
  (forall th, solves th eqs -> exists th', solves th' eqs') ->
  (exists n s j, unify_all n [] eqs 0 = (UOk s, j)) -> exists n s j, unify_all n [] eqs' 0 = (UOk s, j).
Proof.
  intros Hth (n & s & j & H). destruct (unify_all_sound n eqs [] 0%N s j I H) as (_ & _ & Hs).
  destruct (Hth s Hs) as [th' Hs']. exact (solved_accepted th' eqs' Hs').
Qed.

From Coq Require Import Permutation.
Corollary acceptance_permutation eqs eqs' : Permutation eqs eqs' ->
  (exists n s j, unify_all n [] eqs 0 = (UOk s, j)) -> exists n s j, unify_all n [] eqs' 0 = (UOk s, j).
Proof.
  intros Hp. apply acceptance_transfer. intros th Hs. exists th. exact (Permutation_Forall Hp Hs).
Qed.

(** the full statement of C07, in the shape of [C07_full]: inference terminates, and accepts
    exactly the solvable systems *)
Theorem C07_full_holds :
  (forall eqs, exists n, fst (unify_all n [] eqs 0) <> UFuel) /\
  (forall eqs, (exists th, solves th eqs /\ TRI th) <-> (exists n s j, unify_all n [] eqs 0 = (UOk s, j))).
Proof.
  split; intros eqs.
  - destruct (unify_all_total eqs [] 0%N I) as [N HN]. exists N. apply HN, le_n.
  - split.
    + intros (th & Hsol & _). exact (solved_accepted th eqs Hsol).
    + intros (n & s & j & H). destruct (unify_all_sound n eqs [] 0%N s j I H) as (T & _ & S). exists s. split; assumption.
Qed.
