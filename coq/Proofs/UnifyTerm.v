(** Termination of the unifier: on a triangular substitution every call of [unify] ends, with
    enough fuel, in a substitution or an error -- never in [UFuel]. The measure is the classic
    one: the number of unbound variables of a fixed finite universe, then the size of the two
    tags under the current substitution. Also: more fuel never changes an answer. *)
From Oal Require Import ListFacts Tag Unify UnifyProofs.
From Coq Require Import Lia Arith.

Lemma unify_all_weaken_if n m :
  (forall s l r, unify n s l r <> UFuel -> unify m s l r = unify n s l r) ->
  forall eqs s i, fst (unify_all n s eqs i) <> UFuel -> unify_all m s eqs i = unify_all n s eqs i.
Proof.
  intros Hu. induction eqs as [|[l r] eqs IH]; intros s i H; [reflexivity|].
  rewrite !unify_all_cons in *. rewrite Hu by (intros E; rewrite E in H; exact (H eq_refl)).
  destruct (unify n s l r) as [s'|e|]; [apply IH, H|reflexivity|reflexivity].
Qed.

Lemma unify_weaken : forall n m s l r, unify n s l r <> UFuel -> n <= m -> unify m s l r = unify n s l r.
Proof.
  induction n as [|n IH]; intros m s l r H Hle; [contradiction H; reflexivity|]. destruct m as [|m]; [lia|].
  apply le_S_n in Hle. rewrite !unify_eq in *.
  destruct (reduce n s l) as [l'|] eqn:El; [|contradiction H; reflexivity].
  destruct (reduce n s r) as [r'|] eqn:Er; [|contradiction H; reflexivity].
  rewrite (reduce_weaken _ _ _ _ _ El Hle), (reduce_weaken _ _ _ _ _ Er Hle).
  destruct (unify_step_view s l' r') as (f & Hv & Hf). rewrite !Hf in *.
  destruct Hv as [t|v t _|v t _|a b|lbs lr rbs rr _|lbs lr rbs rr _|l' r' _]; cbn beta in *; try reflexivity.
  - apply IH; assumption.
  - unfold unify_func in *. f_equal. apply (unify_all_weaken_if n m (fun s l r H => IH m s l r H Hle)), H.
Qed.

Lemma unify_S : forall n s l r res, unify n s l r = res -> res <> UFuel -> unify (S n) s l r = res.
Proof. intros n s l r res <- Hr. apply unify_weaken; [exact Hr|apply Nat.le_succ_diag_r]. Qed.

Lemma unify_all_weaken_fst n m eqs s i :
  fst (unify_all n s eqs i) <> UFuel -> n <= m -> unify_all m s eqs i = unify_all n s eqs i.
Proof. intros H Hle. apply unify_all_weaken_if; [|exact H]. intros s0 l r H0. apply unify_weaken; assumption. Qed.

(** in the shape in which [C07_answer_stable_under_fuel] states it *)
Lemma unify_all_weaken eqs n m s i res j : unify_all n s eqs i = (res, j) -> res <> UFuel -> n <= m -> unify_all m s eqs i = (res, j).
Proof. intros H Hr Hle. rewrite <- H. apply unify_all_weaken_fst; [rewrite H; exact Hr|exact Hle]. Qed.

(** an invariant [Q] of the substitution that every call re-establishes, on some fuel on which it
    ends, holds after the whole iteration, on some fuel on which that ends *)
Lemma unify_all_ends (Q : subst -> Prop) : forall eqs,
  (forall s l r, In (l, r) eqs -> Q s ->
     exists n, unify n s l r <> UFuel /\ forall s', unify n s l r = UOk s' -> Q s') ->
  forall s i, Q s ->
  exists n, fst (unify_all n s eqs i) <> UFuel /\ forall s', fst (unify_all n s eqs i) = UOk s' -> Q s'.
Proof.
  induction eqs as [|[l r] eqs IH]; intros Hu s i HQ.
  - exists 0. split; [discriminate|]. intros s' [= <-]. exact HQ.
  - destruct (Hu s l r (or_introl eq_refl) HQ) as (n1 & Hn1 & Hq1).
    pose proof (fun m => unify_weaken n1 m s l r Hn1) as Hm1.
    destruct (unify n1 s l r) as [s1|e|]; [| |contradiction].
    + destruct (IH (fun s0 l0 r0 Hin => Hu s0 l0 r0 (or_intror Hin)) s1 (i + 1)%N (Hq1 s1 eq_refl)) as (n2 & Hn2 & Hq2).
      exists (Nat.max n1 n2).
      rewrite unify_all_cons, (Hm1 _ (Nat.le_max_l n1 n2)), (unify_all_weaken_fst n2 _ _ _ _ Hn2 (Nat.le_max_r n1 n2)).
      split; [exact Hn2|exact Hq2].
    + exists n1. rewrite unify_all_cons, (Hm1 n1 (le_n n1)). split; [discriminate|intros s' HH; discriminate HH].
Qed.

Fixpoint tsize (t : tag) : nat :=
  match t with
  | TFunc bs r => S (tsize r + fold_right (fun b acc => tsize b + acc) 0 bs)
  | TProperty t' => S (tsize t')
  | _ => 1
  end.

Section Universe.
  Variable V : list N.

  (** The measure. [V] is a finite set of variables that holds all those in sight: of the two
      tags ([cl]) and of the substitution ([wfs]). A call either leaves the substitution as it is
      or binds variables of [V] that were unbound ([post]), so any change is paid for with the
      count [ub] of unbound variables; while nothing changes, the tags get smaller. *)
  Definition cl (t : tag) : Prop := forall w, occurs w t = true -> In w V.
  Definition wfs (s : subst) : Prop := forall v t, In (v, t) s -> In v V /\ cl t.
  Definition unb (s : subst) (v : N) : bool := match lookup s v with None => true | Some _ => false end.
  Definition ub (s : subst) : nat := length (filter (unb s) V).

  Lemma ub_bind s v u : lookup s v = None -> In v V -> ub ((v, u) :: s) < ub s.
  Proof.
    intros Hl Hin. unfold ub. apply (filter_len_strict _ _ V v); [|exact Hin| |].
    - intros y Hy. unfold unb in *. cbn [lookup] in Hy. destruct (N.eqb y v); [discriminate|exact Hy].
    - unfold unb. rewrite Hl. reflexivity.
    - unfold unb. cbn [lookup]. rewrite N.eqb_refl. reflexivity.
  Qed.

  Lemma cl_apply s : wfs s -> forall t, cl t -> cl (apply s t).
  Proof.
    induction s as [|[v u] s IH]; intros Hw t Ht; [exact Ht|].
    cbn [apply]. intros w Hocc. apply occurs_apply_one_or in Hocc as [H|H].
    - apply (IH (fun v0 t0 Hin => Hw v0 t0 (or_intror Hin)) t Ht w H).
    - destruct (Hw v u (or_introl eq_refl)) as [_ Hu]. apply Hu, H.
  Qed.

  (** what a successful call leaves: a well-formed substitution, the same or with fewer unbound variables of [V] *)
  Definition post (s s' : subst) : Prop := wfs s' /\ (s' = s \/ ub s' < ub s).

  Definition goal (s : subst) (l r : tag) : Prop :=
    exists n, unify n s l r <> UFuel /\ forall s', unify n s l r = UOk s' -> post s s'.

  Lemma post_trans s s1 s2 : post s s1 -> post s1 s2 -> post s s2.
  Proof. intros [_ [->|H1]] [W2 [->|H2]]; split; auto; right; lia. Qed.

  (** a call has ended when its answer is known from some fuel on in terms of the calls at the fuel
      below ([f]), and these have ended: their answer is not [UFuel] and is the same on every larger fuel *)
  Lemma goal_step k s l r (f : nat -> ures) n :
    (forall m, k <= m -> unify (S m) s l r = f m) -> (forall m, n <= m -> f m = f n) -> f n <> UFuel ->
    (forall s', f n = UOk s' -> post s s') -> goal s l r.
  Proof. intros H Hf Hr Hp. exists (S (Nat.max k n)). rewrite H, Hf by lia. split; assumption. Qed.

  Lemma goal_err k s l r e : (forall m, k <= m -> unify (S m) s l r = UErr e) -> goal s l r.
  Proof. intros H. apply (goal_step k s l r (fun _ => UErr e) 0 H); [reflexivity|discriminate|intros s' HH; discriminate HH]. Qed.

  Lemma goal_bind k s l r v t :
    (forall m, k <= m -> unify (S m) s l r = bind s v t) ->
    wfs s -> lookup s v = None -> In v V -> cl t -> goal s l r.
  Proof.
    intros H Hw Hlk Hin Ht. apply (goal_step k s l r (fun _ => bind s v t) 0 H); [reflexivity|..];
      unfold bind; destruct (occurs v t); try discriminate.
    intros s' [= <-]. split; [|right; apply ub_bind; assumption].
    intros v0 t0 [[= <- <-]|Hin0]; [split; assumption|apply Hw, Hin0].
  Qed.

  Theorem unify_terminates : forall u z s l r,
    TRI s -> wfs s -> cl l -> cl r -> ub s <= u -> tsize (apply s l) + tsize (apply s r) <= z -> goal s l r.
  Proof.
    induction u as [u IHu] using lt_wf_ind. induction z as [z IHz] using lt_wf_ind.
    intros s l r Htri Hw Hl Hr Hu Hz.
    (* the calls made on the way: on [s] itself or on one that binds more variables, and on
       parts of the two tags, which [s] leaves alone *)
    assert (Hrec : forall s2 a b, TRI s2 -> post s s2 -> cl a -> cl b ->
              reduced s a -> reduced s b -> tsize a + tsize b < z -> goal s2 a b).
    { intros s2 a b T2 [W2 [->|Hlt]] Ha Hb Ra Rb Hlt'.
      - apply (IHz (tsize a + tsize b)); try assumption.
        rewrite (apply_reduced s a Ra), (apply_reduced s b Rb). apply le_n.
      - apply (IHu (ub s2)) with (z := tsize (apply s2 a) + tsize (apply s2 b)); try assumption; [lia|apply le_n..]. }
    assert (Ps : post s s) by (split; [exact Hw|left; reflexivity]).
    pose proof (cl_apply s Hw l Hl) as Hcl. pose proof (cl_apply s Hw r Hr) as Hcr.
    pose proof (reduced_apply s Htri l) as El2. pose proof (reduced_apply s Htri r) as Er2.
    pose proof (fun m => unify_eq_apply s l r m Htri) as Hstep.
    set (N0 := 1 + depth l + depth r + cost s) in Hstep.
    set (l' := apply s l) in *. set (r' := apply s r) in *. clearbody l' r'. clear Hl Hr.
    (* [Hstep]: the answer on fuel S m, for any m >= N0, in terms of the calls on fuel m *)
    destruct (unify_step_view s l' r') as (f & Hv & Hf). setoid_rewrite Hf in Hstep. clear Hf.
    destruct Hv as [t|v t _|v t _|a b|lbs lr rbs rr _|lbs lr rbs rr _|l' r' _]; cbn beta in Hstep.
    - apply (goal_step N0 s l r _ 0 Hstep); [reflexivity|discriminate|]. intros s' [= <-]. exact Ps.
    - eapply goal_bind; [exact Hstep|exact Hw|apply El2, occurs_var|apply Hcl, occurs_var|exact Hcr].
    - eapply goal_bind; [exact Hstep|exact Hw|apply Er2, occurs_var|apply Hcr, occurs_var|exact Hcl].
    - destruct (Hrec s a b Htri Ps Hcl Hcr El2 Er2 ltac:(cbn [tsize] in Hz; lia)) as (n1 & Hn1 & Hp1).
      apply (goal_step N0 s l r _ n1 Hstep); [|exact Hn1|exact Hp1]. intros m. apply unify_weaken, Hn1.
    - eapply goal_err, Hstep.
    - cbn [tsize] in Hz. unfold unify_func in Hstep.
      destruct (unify_all_ends (fun s2 => TRI s2 /\ post s s2) ((lr, rr) :: combine lbs rbs)) with (s := s) (i := 0%N)
        as (n2 & Hn2 & Hp2); [|split; [exact Htri|exact Ps]|].
      { intros s2 a b Hin [T2 P2].
        (* the system pairs up [lr :: lbs] and [rr :: rbs] *)
        pose proof (in_combine_l (lr :: lbs) (rr :: rbs) a b Hin) as Hina. pose proof (in_combine_r (lr :: lbs) (rr :: rbs) a b Hin) as Hinb.
        destruct (Hrec s2 a b T2 P2 (occurs_func_sub _ _ _ Hcl a Hina) (occurs_func_sub _ _ _ Hcr b Hinb)
                    (occurs_func_sub _ _ _ El2 a Hina) (occurs_func_sub _ _ _ Er2 b Hinb)) as (n & Hn & Hp).
        { pose proof (sum_in tsize _ a Hina) as Sa. pose proof (sum_in tsize _ b Hinb) as Sb. cbn [fold_right] in Sa, Sb. lia. }
        exists n. split; [exact Hn|]. intros s' E.
        split; [exact (unify_TRI _ _ _ _ _ T2 E)|exact (post_trans _ _ _ P2 (Hp s' E))]. }
      apply (goal_step N0 s l r _ n2 Hstep); [|exact Hn2|intros s' E; apply Hp2, E].
      intros m Hm. f_equal. apply unify_all_weaken_fst; [exact Hn2|exact Hm].
    - eapply goal_err, Hstep.
  Qed.
End Universe.

Definition svars (s : subst) : list N := flat_map (fun vt : N * tag => fst vt :: vars (snd vt)) s.

Theorem unify_total s l r : TRI s -> exists N, forall n, N <= n -> unify n s l r <> UFuel.
Proof.
  intros Htri. set (V := svars s ++ vars l ++ vars r).
  assert (Hw : wfs V s).
  { intros v t Hin. split.
    - apply in_or_app. left. apply in_flat_map. exists (v, t). split; [exact Hin|left; reflexivity].
    - intros w Hw. apply in_or_app. left. apply in_flat_map. exists (v, t). split; [exact Hin|right; apply occurs_vars, Hw]. }
  assert (Hl : cl V l) by (intros w Hw'; apply in_or_app; right; apply in_or_app; left; apply occurs_vars, Hw').
  assert (Hr : cl V r) by (intros w Hw'; apply in_or_app; right; apply in_or_app; right; apply occurs_vars, Hw').
  destruct (unify_terminates V (ub V s) (tsize (apply s l) + tsize (apply s r)) s l r Htri Hw Hl Hr (le_n _) (le_n _)) as (N & HN & _).
  exists N. intros n Hn. rewrite (unify_weaken N n s l r HN Hn). exact HN.
Qed.

Theorem unify_all_total : forall eqs s i, TRI s -> exists N, forall n, N <= n -> fst (unify_all n s eqs i) <> UFuel.
Proof.
  intros eqs s i Htri. destruct (unify_all_ends TRI eqs) with (s := s) (i := i) as (N & HN & _); [|exact Htri|].
  - intros s0 l r _ T. destruct (unify_total s0 l r T) as [N HN]. exists N. split; [apply HN, le_n|].
    intros s'. apply unify_TRI, T.
  - exists N. intros n Hn. rewrite (unify_all_weaken_fst N n eqs s i HN Hn). exact HN.
Qed.
