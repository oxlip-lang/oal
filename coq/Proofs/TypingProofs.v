(** Type soundness of the evaluator model: a program that passes the typing discipline of
    Model/Typing.v (what inference and type checking enforce on variable-free tags) never
    reaches a panic of the evaluator other than the ones of cast_content, cast_object,
    cast_uri and cast_relation -- the four casts where the known findings K1, K10, K11, K12,
    K16 live. Every other panic site (cast_schema, cast_ranges, cast_string, cast_property,
    cast_http_status, cast_transfer, cast_lambda, the lookup of a binding, of a declaration,
    the arity of concat, Uri::append on an empty path, an unexpected node) is unreachable. *)
From Oal Require Import ListFacts Tag Eval Typing EvalBasics.
From Oal Require EvalCong EvalProofs UnifyProofs.
Local Open Scope N_scope.

Definition allowed (p : N) : Prop := p = P_content \/ p = P_object \/ p = P_uri \/ p = P_relation.

Lemma if_some {A} (c : bool) (x y : A) : (if c then Some x else None) = Some y -> c = true /\ x = y.
Proof. destruct c; [intros [= ->]; auto|discriminate]. Qed.

Lemma is_tag_eq o t : is_tag o t = true -> o = Some t.
Proof. destruct o as [t'|]; cbn; [|discriminate]. intros H. f_equal. apply UnifyProofs.tag_eqb_iff, H. Qed.

Lemma has_some p o : has p o = true -> exists t, o = Some t /\ p t = true.
Proof. destruct o as [t|]; cbn; [|discriminate]. intros H. exists t. split; [reflexivity|exact H]. Qed.

Lemma all2_length {A B} (f : A -> B -> bool) : forall l1 l2, all2 f l1 l2 = true -> length l1 = length l2.
Proof.
  induction l1 as [|a l1 IH]; intros [|b l2] H; cbn [all2] in H; try discriminate H; [reflexivity|].
  apply andb_prop in H as [_ H]. cbn [length]. f_equal. apply IH, H.
Qed.

Lemma synth_app E G e args t : synth E G (EApp e args) = Some t ->
  exists bs, synth E G e = Some (TFunc bs t) /\ all2 (fun a b => is_tag (synth E G a) b) args bs = true.
Proof.
  cbn [synth]. destruct (synth E G e) as [[b|t'|bs r|v]|]; try discriminate.
  intros H. apply if_some in H as [Hall ->]. exists bs. auto.
Qed.

Section Sound.
  Variable E : tenv.
  Variable P : prog.

  (** which values inhabit a tag. A URI value is also a primitive: [EPrim 4] evaluates to the
      URI with no segment, and only a URI of tag [BUri] is known to have one (what [Uri::append]
      needs of its left operand, [P_append]) *)
  Fixpoint vt (v : value) (t : tag) : Prop :=
    match v with
    | VStr _ => t = T BText
    | VNum _ => t = T BNumber
    | VStat _ => t = T BStatus
    | VPrim _ => t = T BPrimitive
    | VUri (Uri path _ _) => t = T BPrimitive \/ (t = T BUri /\ path <> [])
    | VRel _ => t = T BRelation
    | VXfer _ => t = T BTransfer
    | VCont _ | VRanges _ => t = T BContent
    | VObj _ => t = T BObject
    | VProp _ => exists t', t = TProperty t'
    | VOp _ _ => is_schema_t t = true
    | VArr _ => t = T BArray
    | VRef _ v' _ => is_schema_t t = true /\ vt v' t
    | VRecur _ => is_schema_t t = true
    | VLamInt => t = concat_tag
    | VLamExt m i =>
        match t with
        | TFunc _ _ => sig_get E m i = Some t /\ ground t = true /\ exists d, get_decl P m i = Some d /\ d_params d <> []
        | _ => False
        end
    end.

  Definition VT (t : tag) : aval -> Prop := fun va => vt (fst va) t.

  Definition pure_ok {B} (c : res B) : Prop := match c with Panic p => allowed p | _ => True end.

  Ltac vt_absurd H :=
    lazymatch type of H with
    | False => contradiction
    | _ = _ => discriminate H
    | _ \/ _ => destruct H as [H|[H _]]; discriminate H
    | ex _ => destruct H as [? H]; discriminate H
    | _ /\ _ => destruct H as [H _]; discriminate H
    end.

  Ltac vt_split v H :=
    destruct v as [[?path ?prm ?ex]|?r|?x|?c|?ps|?r|?p|?e|?op ?ss|?k ?v' ?a'|?item|?s|?n|?s| |?m ?i|?k];
    unfold T in *; cbn [vt] in H.

  Lemma vt_schema_like v t : vt v t -> is_schema_t t = true -> is_schema_like v = true.
  Proof.
    intros H Hs. vt_split v H; cbn [is_schema_like]; try reflexivity; try (subst t; discriminate Hs).
    - destruct H as [t' ->]. discriminate Hs.
    - destruct t; try contradiction. discriminate Hs.
  Qed.

  Lemma cast_schema_typed v a t : vt v t -> is_schema_t t = true -> exists sc, cast_schema (v, a) = Ok sc.
  Proof.
    intros H Hs. pose proof (vt_schema_like v t H Hs) as Hl.
    destruct v; cbn [is_schema_like] in Hl; try discriminate; cbn [cast_schema]; eexists; reflexivity.
  Qed.

  Lemma cast_schema_pure t : is_schema_t t = true -> forall va, VT t va -> pure_ok (cast_schema va).
  Proof. intros Hs [v a] Hv. destruct (cast_schema_typed v a t Hv Hs) as [sc ->]. exact I. Qed.

  Lemma vt_content v : vt v (T BContent) -> (exists c, v = VCont c) \/ (exists r, v = VRanges r).
  Proof.
    intros H. vt_split v H; try vt_absurd H; [left|right]; eexists; reflexivity.
  Qed.

  (* no typing is needed: every schema-like value passes [cast_schema], and the panic of [cast_content] itself is an allowed one *)
  Lemma cast_content_pure va : pure_ok (cast_content va).
  Proof. destruct va as [v a]. destruct v; cbn; try exact I; left; reflexivity. Qed.

  Lemma cast_ranges_pure t : content_like_t t = true -> forall va, VT t va -> pure_ok (cast_ranges va).
  Proof.
    intros Hc [v a] H. pose proof (cast_content_pure (v, a)) as Hcc.
    unfold content_like_t in Hc. apply orb_prop in Hc as [Hs|Hc].
    - pose proof (vt_schema_like v t H Hs) as Hl.
      unfold cast_ranges. cbn [fst].
      destruct v; cbn [is_schema_like] in Hl; try discriminate Hl; cbn [is_content_like is_schema_like];
        (destruct (cast_content _) as [c0| | |]; cbn [bind]; [exact I|exact I|exact Hcc|exact I]).
    - destruct t as [[]| | |]; try discriminate Hc.
      destruct (vt_content v H) as [[c ->]|[r ->]]; cbn; exact I.
  Qed.

  Lemma cast_string_pure v : vt v (T BText) -> pure_ok (cast_string v).
  Proof. intros H. vt_split v H; try vt_absurd H. exact I. Qed.

  Lemma cast_property_pure t v : is_property_t t = true -> vt v t -> pure_ok (cast_property v).
  Proof. intros Ht H. destruct t; try discriminate Ht. vt_split v H; try vt_absurd H. exact I. Qed.

  Lemma cast_status_pure t v : status_like_t t = true -> vt v t -> pure_ok (cast_http_status v).
  Proof.
    intros Hs H. destruct t as [[]| | |]; try discriminate Hs; vt_split v H; try vt_absurd H; cbn [cast_http_status]; try exact I.
    destruct (_ && _); exact I.
  Qed.

  Lemma cast_transfer_pure v : vt v (T BTransfer) -> pure_ok (cast_transfer v).
  Proof. intros H. vt_split v H; try vt_absurd H. exact I. Qed.

  (* [cast_object] and [cast_relation] have no panic but their own, an allowed one, whatever the value *)
  Lemma cast_object_pure : forall v, pure_ok (cast_object v).
  Proof. fix IH 1. intros v. destruct v; cbn [cast_object pure_ok]; try exact I; try (right; left; reflexivity). apply IH. Qed.

  Lemma cast_relation_pure : forall v, pure_ok (cast_relation v).
  Proof. fix IH 1. intros v. destruct v; cbn [cast_relation pure_ok]; try exact I; try (right; right; right; reflexivity). apply IH. Qed.

  Lemma cast_uri_typed : forall v, vt v (T BUri) ->
    match cast_uri v with Ok (Uri path _ _) => path <> [] | Panic p => allowed p | _ => False end.
  Proof.
    fix IH 1. intros v H. vt_split v H; try vt_absurd H; cbn [cast_uri]; try (right; right; left; reflexivity).
    - destruct H as [H|[_ H]]; [discriminate H|exact H].
    - destruct H as [_ H]. apply IH, H.
  Qed.

  (* the table is keyed by the bare @name: some declaration of that name has the tag (all of them,
     under the consistency hypothesis [H_named]; without it K21) *)
  Definition key_tag (k : rkey) (t : tag) : Prop :=
    match k with
    | KDecl m i => sig_get E m i = Some t
    | KNamed x => exists m i d, get_decl P m i = Some d /\ d_ref d = Some x /\ sig_get E m i = Some t
    | KRec _ _ _ => True
    end.

  Definition entry_ok (kv : rkey * option aval) : Prop :=
    match snd kv with
    | None => True
    | Some va => exists t, is_schema_t t = true /\ vt (fst va) t /\ key_tag (fst kv) t
    end.
  Definition refs_ok (r : list (rkey * option aval)) : Prop := Forall entry_ok r.

  Lemma rinsert_ok k ov r : refs_ok r -> entry_ok (k, ov) -> refs_ok (rinsert k ov r).
  Proof. exact (im_insert_Forall rkey_eqb_iff entry_ok k ov r). Qed.

  Lemma rget_ok k r x : refs_ok r -> rget k r = Some x -> entry_ok (k, x).
  Proof. intros Hr H. exact (proj1 (Forall_forall _ _) Hr _ (im_get_in rkey_eqb_iff _ _ _ H)). Qed.

  Definition stack_ok (G : ctx) (ss : list (N * scope)) : Prop :=
    forall x t, ctx_get x G = Some t -> exists v a, lookup_binding x ss = Some (v, a) /\ vt v t.

  Definition scope_ok (G : ctx) (sc : scope) : Prop :=
    forall x t, ctx_get x G = Some t -> exists v a, im_get N.eqb x sc = Some (v, a) /\ vt v t.

  (* [fr] is the stack the evaluation must put back *)
  Definition ok_res {B} (fr : list (N * scope)) (Q : B -> Prop) (r : res (st * B)) : Prop :=
    match r with
    | Ok (s', b) => Q b /\ refs_ok (refs s') /\ scopes s' = fr
    | Panic p => allowed p
    | _ => True
    end.

  (** the step may run on another stack [fr'] than the one its continuation answers for (the body of an application) *)
  Lemma ok_bind {B C} fr' fr (Q : B -> Prop) (R : C -> Prop) (r : res (st * B)) (k : st * B -> res (st * C)) :
    ok_res fr' Q r ->
    (forall s' b, Q b -> refs_ok (refs s') -> scopes s' = fr' -> ok_res fr R (k (s', b))) ->
    ok_res fr R (bind r k).
  Proof.
    intros Hr Hk. destruct r as [[s' b]|x|p|]; cbn [ok_res bind] in *; try exact I; [|exact Hr].
    destruct Hr as (Hq & Hrf & Hs). apply Hk; assumption.
  Qed.

  Lemma ok_pure {B C} fr (R : C -> Prop) (c : res B) (k : B -> res (st * C)) :
    pure_ok c -> (forall x, c = Ok x -> ok_res fr R (k x)) -> ok_res fr R (bind c k).
  Proof.
    intros Hc Hk. destruct c as [x|x|p|]; cbn [bind ok_res pure_ok] in *; try exact I; [apply Hk; reflexivity|exact Hc].
  Qed.

  Lemma ok_lambda {C} fr (R : C -> Prop) v bs r (k : value -> res (st * C)) : vt v (TFunc bs r) ->
    (TFunc bs r = concat_tag -> ok_res fr R (k VLamInt)) ->
    (forall m i, vt (VLamExt m i) (TFunc bs r) -> ok_res fr R (k (VLamExt m i))) ->
    ok_res fr R (bind (cast_lambda v) k).
  Proof. intros H Hint Hext. vt_split v H; try vt_absurd H; cbn [cast_lambda bind]; auto. Qed.

  Lemma ok_ret {B} fr (Q : B -> Prop) s b : Q b -> refs_ok (refs s) -> scopes s = fr -> ok_res fr Q (Ok (s, b)).
  Proof. intros. cbn. auto. Qed.

  Lemma ok_map {B C} fr (Q : B -> Prop) (R : C -> Prop) (g : B -> C) (r : res (st * B)) :
    ok_res fr Q r -> (forall b, Q b -> R (g b)) -> ok_res fr R (do (s', b) <- r; Ok (s', g b)).
  Proof. intros Hr Hg. eapply ok_bind; [exact Hr|]. intros s' b Hb Hrf Hs. apply ok_ret; auto. Qed.

  Section Lists.
    Context {X B : Type}.
    Variable fr : list (N * scope).
    Variable okx : X -> bool.
    Variable Q : B -> Prop.
    Variable f : st -> X -> res (st * B).
    Hypothesis Hf : forall s x, okx x = true -> refs_ok (refs s) -> scopes s = fr -> ok_res fr Q (f s x).

    Lemma map_st_ok l : forall s, forallb okx l = true -> refs_ok (refs s) -> scopes s = fr ->
      ok_res fr (fun bs => Forall Q bs /\ length bs = length l) (map_st f s l).
    Proof.
      induction l as [|x l IH]; intros s Hl Hr Hs.
      - cbn. auto.
      - cbn [forallb] in Hl. apply andb_prop in Hl as [Hx Hl]. cbn [map_st].
        eapply ok_bind; [apply Hf; assumption|].
        intros s1 b Hb Hr1 Hs1. eapply ok_bind; [apply IH; assumption|].
        intros s2 bs [Hbs Hlen] Hr2 Hs2. apply ok_ret; [|assumption|assumption].
        split; [constructor; assumption|cbn [length]; congruence].
    Qed.

    Lemma opt_st_ok o : forall s, match o with Some x => okx x = true | None => True end -> refs_ok (refs s) -> scopes s = fr ->
      ok_res fr (fun ob => match ob with Some b => Q b | None => True end) (opt_st f s o).
    Proof.
      intros s Ho Hr Hs. destruct o as [x|]; cbn [opt_st].
      - apply (ok_map fr Q _ Some); [apply Hf; assumption|auto].
      - apply ok_ret; auto.
    Qed.
  End Lists.

  Lemma is_schema_ground t : is_schema_t t = true -> ground t = true.
  Proof. destruct t as [[]| | |]; cbn; congruence. Qed.

  Lemma scope_ok_insert G sc p t v a : scope_ok G sc -> vt v t -> scope_ok (im_insert N.eqb p t G) (im_insert N.eqb p (v, a) sc).
  Proof.
    intros Hs Hv x t' Hx. destruct (N.eq_dec x p) as [->|Hne].
    - unfold ctx_get in Hx. rewrite (im_get_insert_same N.eqb_eq) in Hx. injection Hx as <-.
      exists v, a. split; [apply (im_get_insert_same N.eqb_eq)|exact Hv].
    - unfold ctx_get in Hx. rewrite (im_get_insert_other N.eqb_eq) in Hx by exact Hne.
      rewrite (im_get_insert_other N.eqb_eq) by exact Hne. apply Hs, Hx.
  Qed.

  Lemma bind_args_ok fr (ev : st -> expr -> res (st * aval)) G0 args : forall bs ps s G sc,
    (forall s a b, refs_ok (refs s) -> scopes s = fr -> is_tag (synth E G0 a) b = true -> ok_res fr (fun va => vt (fst va) b) (ev s a)) ->
    all2 (fun a b => is_tag (synth E G0 a) b) args bs = true ->
    scope_ok G sc -> refs_ok (refs s) -> scopes s = fr ->
    ok_res fr (fun sc' => scope_ok (mkctx ps bs G) sc') (bind_args ev s ps args sc).
  Proof.
    induction args as [|a args IH]; intros bs ps s G sc Hev Hall Hsc Hr Hs.
    - destruct bs; [|discriminate]. destruct ps; cbn; auto.
    - destruct bs as [|b bs]; [discriminate|]. destruct ps as [|p ps]; [cbn; auto|].
      cbn [all2] in Hall. apply andb_prop in Hall as [Ha Hall].
      cbn [bind_args mkctx]. eapply ok_bind; [apply Hev; eassumption|].
      intros s1 [v a1] Hv Hr1 Hs1. cbn [fst] in Hv.
      apply IH; try assumption. apply scope_ok_insert; assumption.
  Qed.

  Lemma compose_pure anns : forall acc, pure_ok (compose anns acc).
  Proof. induction anns as [|[a|] anns IH]; intros acc; cbn [compose]; [exact I|apply IH|exact I]. Qed.

  Lemma prim_value_typed p a : N.ltb p 5 = true -> exists v, prim_value p a = Ok v /\ vt v (T BPrimitive).
  Proof.
    intros Hp. destruct (prim_value_cases p) as [->|[->|[->|[->|[->|[Hp' _]]]]]]; [..|congruence]; eexists; (split; [reflexivity|]); cbn [vt]; auto.
  Qed.

  Lemma uri_append_typed lp lprm lex rp rprm rex : lp <> [] -> rp <> [] ->
    exists p' a b, uri_append (Uri lp lprm lex) (Uri rp rprm rex) = Ok (Uri p' a b) /\ p' <> [].
  Proof.
    intros Hl Hr. unfold uri_append. destruct (rev lp) as [|lastseg before] eqn:Hrev.
    - exfalso. apply Hl. rewrite <- (rev_involutive lp), Hrev. reflexivity.
    - eexists _, _, _. split; [reflexivity|]. intros H. apply app_eq_nil in H as [_ H]. exact (Hr H).
  Qed.

  Lemma cast_ok {B C} fr (c : aval -> res B) (g : B -> C) (Q : C -> Prop) t0 (r : res (st * aval)) :
    ok_res fr (VT t0) r -> (forall va, VT t0 va -> pure_ok (c va)) -> (forall x, Q (g x)) ->
    ok_res fr Q (do (s', v) <- r; do x <- c v; Ok (s', g x)).
  Proof.
    intros Hr Hc Hq. eapply ok_bind; [exact Hr|]. intros s1 va Hva Hr1 Hs1. cbn beta iota.
    apply ok_pure; [apply Hc, Hva|]. intros x _. apply ok_ret; auto.
  Qed.

  (** [is_tag o t0] is [has (fun t => tag_eqb t t0) o] *)
  Lemma pure_at {B} (c : aval -> res B) t0 :
    (forall va, VT t0 va -> pure_ok (c va)) -> forall t, tag_eqb t t0 = true -> forall va, VT t va -> pure_ok (c va).
  Proof. intros H t Ht. apply UnifyProofs.tag_eqb_iff in Ht as ->. exact H. Qed.

  Lemma stack_of_scope G sc id rest : scope_ok G sc -> stack_ok G ((id, sc) :: rest).
  Proof.
    intros Hsc x t Hx. destruct (Hsc x t Hx) as (v & a & Hget & Hv). exists v, a. split; [|exact Hv].
    cbn [lookup_binding]. rewrite Hget. reflexivity.
  Qed.

  Definition meta_okb (G : ctx) (ke : N * expr) : bool :=
    match ke with
    | (0, rhs) => is_tag (synth E G rhs) (T BText)
    | (1, rhs) => is_tag (synth E G rhs) (T BObject)
    | (2, rhs) => has status_like_t (synth E G rhs)
    | _ => false
    end.

  Lemma eval_metas_ok fr (ev : st -> expr -> res (st * aval)) G ms :
    (forall s rhs t0, synth E G rhs = Some t0 -> refs_ok (refs s) -> scopes s = fr -> ok_res fr (VT t0) (ev s rhs)) ->
    forall s acc, forallb (meta_okb G) ms = true -> refs_ok (refs s) -> scopes s = fr ->
    ok_res fr (fun _ => True) (eval_metas ev s ms acc).
  Proof.
    intros Hev. induction ms as [|[k rhs] ms IH]; intros s acc Hok Hr Hs.
    - apply ok_ret; auto.
    - cbn [forallb] in Hok. apply andb_prop in Hok as [Hk Hok]. cbn [eval_metas].
      destruct acc as [[status media] headers].
      destruct k as [|[[p|p|]|[p|p|]|]]; cbn [meta_okb] in Hk; try discriminate Hk.
      + apply is_tag_eq in Hk. eapply ok_bind; [apply Hev; eassumption|].
        intros s1 [v a] Hv Hr1 Hs1. apply ok_pure; [exact (cast_string_pure v Hv)|]. intros x _. apply IH; assumption.
      + apply has_some in Hk as (t0 & Ht0 & Hst0). eapply ok_bind; [apply Hev; eassumption|].
        intros s1 [v a] Hv Hr1 Hs1. apply ok_pure; [exact (cast_status_pure t0 v Hst0 Hv)|]. intros x _. apply IH; assumption.
      + apply is_tag_eq in Hk. eapply ok_bind; [apply Hev; eassumption|].
        intros s1 [v a] Hv Hr1 Hs1. apply ok_pure; [apply cast_object_pure|]. intros x _. apply IH; assumption.
  Qed.

  Hypothesis H_decl : forall m i d, get_decl P m i = Some d -> exists t, sig_get E m i = Some t /\ decl_okb E d t = true.
  Hypothesis H_sig : forall m i t, sig_get E m i = Some t -> exists d, get_decl P m i = Some d.
  Hypothesis H_named : forall m i d m' i' d' x t t',
    get_decl P m i = Some d -> get_decl P m' i' = Some d' -> d_ref d = Some x -> d_ref d' = Some x ->
    sig_get E m i = Some t -> sig_get E m' i' = Some t' -> t = t'.

  Variable lx : bool.

  Section SoundStep.
    Variable ev : st -> expr -> ymap -> res (st * aval).
    Hypothesis IH : forall s e a G t,
      synth E G e = Some t -> stack_ok G (scopes s) -> refs_ok (refs s) -> ok_res (scopes s) (VT t) (ev s e a).

    (** the hypothesis at the states whose stack is [fr]: what the sub-expressions of one expression
        are evaluated in, each leaving the stack as it found it *)
    Lemma IH_fr G fr : stack_ok G fr -> forall s0 e0 a0 t0, synth E G e0 = Some t0 -> refs_ok (refs s0) -> scopes s0 = fr ->
      ok_res fr (VT t0) (ev s0 e0 a0).
    Proof. intros Hst s0 e0 a0 t0 H0 Hr0 Hs0. rewrite <- Hs0. apply (IH s0 e0 a0 G t0 H0); [rewrite Hs0; exact Hst|exact Hr0]. Qed.

    (** sub-expressions whose tags pass [p], each followed by a cast [c] that is safe on the values of
        such tags *)
    Section Casts.
      Variables (G : ctx) (fr : list (N * scope)).
      Hypothesis Hst : stack_ok G fr.
      Context {B : Type} (c : aval -> res B) (p : tag -> bool).
      Hypothesis Hc : forall t, p t = true -> forall va, VT t va -> pure_ok (c va).

      Lemma cast_ok_has s e : has p (synth E G e) = true -> refs_ok (refs s) -> scopes s = fr ->
        ok_res fr (fun _ => True) (do (s', v) <- ev s e []; do x <- c v; Ok (s', x)).
      Proof.
        intros He Hr Hs. apply has_some in He as (t0 & Ht0 & Hp0).
        apply (cast_ok fr c (fun x => x) _ t0); [apply (IH_fr G fr Hst); assumption|exact (Hc t0 Hp0)|auto].
      Qed.

      Lemma casts_ok es s : forallb (fun e => has p (synth E G e)) es = true -> refs_ok (refs s) -> scopes s = fr ->
        ok_res fr (fun bs => Forall (fun _ => True) bs /\ length bs = length es)
          (map_st (fun s e => do (s', v) <- ev s e []; do x <- c v; Ok (s', x)) s es).
      Proof. apply (map_st_ok fr (fun e => has p (synth E G e)) (fun _ => True)). intros s0 x. apply cast_ok_has. Qed.

      Lemma ocast_ok o s : match o with Some e => has p (synth E G e) | None => true end = true ->
        refs_ok (refs s) -> scopes s = fr ->
        ok_res fr (fun ob => match ob with Some _ => True | None => True end)
          (opt_st (fun s e => do (s', v) <- ev s e []; do x <- c v; Ok (s', x)) s o).
      Proof.
        intros Ho. apply (opt_st_ok fr (fun e => has p (synth E G e)) (fun _ => True));
          [intros s0 x; apply cast_ok_has|destruct o; [exact Ho|exact I]].
      Qed.
    End Casts.

    (** the key of a declaration carries the tag of the declaration and, the @names being consistent, no other *)
    Lemma decl_key_tag m i d t : get_decl P m i = Some d -> sig_get E m i = Some t ->
      key_tag (decl_key d m i) t /\ forall t1, key_tag (decl_key d m i) t1 -> t1 = t.
    Proof.
      intros Hd Hsig. unfold decl_key. destruct (d_ref d) as [x|] eqn:Hx; cbn [key_tag].
      - split; [exists m, i, d; auto|]. intros t1 (m' & i' & d' & Hd' & Hx' & Hs').
        exact (H_named m' i' d' m i d x t1 t Hd' Hd Hx' Hx Hs' Hsig).
      - split; [exact Hsig|congruence].
    Qed.

    Lemma sound_decl s m i a G t : synth E G (EDecl m i) = Some t -> refs_ok (refs s) ->
      ok_res (scopes s) (VT t) (eval_step lx P ev s (EDecl m i) a).
    Proof.
      intros Hty Hrf. set (fr := scopes s) in *. cbn [synth] in Hty.
      destruct (sig_get E m i) as [t0|] eqn:Hsig; [|discriminate Hty].
      apply if_some in Hty as [Hg ->].
      destruct (H_sig m i t Hsig) as [d Hd].
      destruct (H_decl m i d Hd) as (t1 & Hsig1 & Hok). rewrite Hsig in Hsig1. injection Hsig1 as <-.
      unfold decl_okb in Hok. rewrite Hg in Hok. cbn [negb orb] in Hok. cbn [eval_step]. rewrite Hd.
      destruct (d_params d) as [|p ps] eqn:Hps.
      + apply andb_prop in Hok as [Hrhs Hsch]. apply is_tag_eq in Hrhs.
        apply ok_pure; [apply compose_pure|]. intros da _.
        assert (IHd : forall s0 a0, refs_ok (refs s0) -> ok_res (scopes s0) (VT t) (ev s0 (d_rhs d) a0)).
        { intros s0 a0 Hr0. apply (IH s0 (d_rhs d) a0 [] t Hrhs); [intros x t' Hx; discriminate Hx|exact Hr0]. }
        change (match d_ref d with Some _ => true | None => false end) with (is_some (d_ref d)).
        destruct (is_some (d_ref d) || d_rec d); [|apply IHd, Hrf].
        destruct (decl_key_tag m i d t Hd Hsig) as [Hkey Honly]. set (key := decl_key d m i) in *.
        destruct (rget key (refs s)) as [[[v va]|]|] eqn:Hget.
        * pose proof (rget_ok _ _ _ Hrf Hget) as (t1 & Hs1 & Hv1 & Hk1). cbn [fst snd] in *. apply Honly in Hk1 as ->.
          apply ok_ret; [split; assumption|exact Hrf|reflexivity].
        * apply ok_ret; [exact Hsch|exact Hrf|reflexivity].
        * eapply ok_bind; [apply (IHd (set_refs s (rinsert key None (refs s)))); apply rinsert_ok; [exact Hrf|exact I]|].
          intros s2 [v va] Hv Hr2 Hs2. cbn [fst snd] in *. apply ok_ret.
          -- split; [exact Hsch|exact Hv].
          -- apply rinsert_ok; [exact Hr2|]. exists t. cbn [fst snd]. auto.
          -- exact Hs2.
      + destruct t as [b|t'|bs r|v]; try discriminate Hok.
        apply ok_ret; [|exact Hrf|reflexivity].
        cbn [VT fst vt]. repeat split; [exact Hsig|exact Hg|]. exists d. split; [exact Hd|rewrite Hps; discriminate].
    Qed.

    Lemma sound_concat G fr s1 args a bs t : stack_ok G fr -> TFunc bs t = concat_tag ->
      all2 (fun a0 b => is_tag (synth E G a0) b) args bs = true -> refs_ok (refs s1) -> scopes s1 = fr ->
      ok_res fr (VT t) (app_builtin (fun s e => ev s e []) s1 args a).
    Proof.
      unfold concat_tag. intros Hst [= -> ->] Hall Hr1 Hs1. pose proof (all2_length _ _ _ Hall) as Hlen2.
      destruct args as [|a1 [|a2 [|a3 args]]]; try discriminate Hlen2. cbn [all2] in Hall.
      apply andb_prop in Hall as [H1 H2]. apply andb_prop in H2 as [H2 _].
      unfold app_builtin. eapply ok_bind.
      { apply (map_st_ok fr (fun a0 => is_tag (synth E G a0) (T BUri)) (VT (T BUri))); [|cbn [forallb]; rewrite H1, H2; reflexivity|exact Hr1|exact Hs1].
        intros s0 x Hx Hr0 Hs0. apply (IH_fr G fr Hst); [apply is_tag_eq, Hx|exact Hr0|exact Hs0]. }
      intros s2 vs [Hvs Hlen] Hr2 Hs2. cbn beta iota.
      destruct vs as [|[vl al] [|[vr ar] [|v3 vs]]]; try discriminate Hlen.
      inversion Hvs as [|? ? Hvl Hvs']; subst. inversion Hvs' as [|? ? Hvr _]; subst. cbn [VT fst] in Hvl, Hvr.
      pose proof (cast_uri_typed vr Hvr) as Hcr. pose proof (cast_uri_typed vl Hvl) as Hcl'.
      cbn [fst]. destruct (cast_uri vr) as [[rp rprm rex]|x|p|]; cbn [bind]; try contradiction; [|exact Hcr].
      destruct (cast_uri vl) as [[lp lprm lex]|x|p|]; cbn [bind]; try contradiction; [|exact Hcl'].
      destruct (uri_append_typed lp lprm lex rp rprm rex Hcl' Hcr) as (p' & ua & ub & -> & Hp'). cbn [bind].
      apply ok_ret; [cbn [VT fst vt]; right; split; [reflexivity|exact Hp']|exact Hr2|exact Hs2].
    Qed.

    Lemma sound_app s e args a G t : synth E G (EApp e args) = Some t -> stack_ok G (scopes s) -> refs_ok (refs s) ->
      ok_res (scopes s) (VT t) (eval_step lx P ev s (EApp e args) a).
    Proof.
      intros Hty Hst Hrf. set (fr := scopes s) in *. pose proof (IH_fr G fr Hst) as IHs.
      apply synth_app in Hty as (bs & Hf & Hall). cbn [eval_step].
      eapply ok_bind; [apply (IHs s e [] (TFunc bs t) Hf Hrf eq_refl)|].
      intros s1 fv Hfv Hr1 Hs1. apply (ok_lambda fr _ (fst fv) bs t _ Hfv).
      + intros Hct. exact (sound_concat G fr s1 args a bs t Hst Hct Hall Hr1 Hs1).
      + intros m i (Hsig & Hg & d & Hd & Hps). cbn iota. rewrite Hd.
        destruct (H_decl m i d Hd) as (t1 & Hsig1 & Hok). rewrite Hsig in Hsig1. injection Hsig1 as <-.
        unfold decl_okb in Hok. rewrite Hg in Hok. cbn [negb orb] in Hok.
        destruct (d_params d) as [|p ps] eqn:Hpd; [contradiction|].
        apply andb_prop in Hok as [Hlen Hrhs]. apply Nat.eqb_eq in Hlen. apply is_tag_eq in Hrhs.
        eapply ok_bind.
        { apply (bind_args_ok fr (fun s0 e0 => ev s0 e0 []) G args bs (p :: ps) s1 [] []); try assumption.
          - intros s0 a0 b0 Hr0 Hs0 Hb0. apply IHs; [apply is_tag_eq, Hb0|exact Hr0|exact Hs0].
          - intros x t' Hx. discriminate Hx. }
        intros s2 sc Hsc Hr2 Hs2. cbn beta iota.
        apply ok_pure; [apply compose_pure|]. intros da _.
        (* under either semantics the body runs on a stack whose top scope is typed by the parameters *)
        destruct lx.
        * assert (Hlenargs : length args = length (p :: ps)) by (pose proof (all2_length _ _ _ Hall); congruence).
          rewrite Hlenargs, Nat.ltb_irrefl.
          eapply ok_bind; [apply (IH (mk_st (refs s2) [((seq s2 + 1)%N, sc)] (seq s2 + 1)%N) (d_rhs d) (extend da a) _ t Hrhs (stack_of_scope _ sc _ _ Hsc) Hr2)|].
          intros s3 rv Hv Hr3 _. apply ok_ret; [exact Hv|exact Hr3|exact Hs2].
        * eapply ok_bind; [apply (IH (push_scope s2 sc) (d_rhs d) (extend da a) _ t Hrhs (stack_of_scope _ sc _ _ Hsc) Hr2)|].
          intros s3 rv Hv Hr3 Hs3. apply ok_ret; [exact Hv|exact Hr3|].
          unfold pop_scope. cbn [scopes]. rewrite Hs3. exact Hs2.
    Qed.

    Lemma sound_rec s m i x e a G t : synth E G (ERec m i x e) = Some t -> stack_ok G (scopes s) -> refs_ok (refs s) ->
      ok_res (scopes s) (VT t) (eval_step lx P ev s (ERec m i x e) a).
    Proof.
      intros Hty Hst Hrf. set (fr := scopes s) in *. cbn [synth] in Hty. cbn [eval_step].
      destruct (rec_get E m i) as [t0|] eqn:Hrec; [|discriminate Hty].
      apply if_some in Hty as [Hc ->]. apply andb_prop in Hc as [Hc1 Hbody]. apply andb_prop in Hc1 as [Hsch _]. apply is_tag_eq in Hbody.
      set (key := KRec m i (top_scope_id s)).
      set (sc := [(x, (VRecur key, @nil (str * yaml)))]).
      assert (Hst2 : stack_ok ((x, t) :: G) (scopes (push_scope s sc))).
      { intros y t' Hy. cbn [push_scope scopes lookup_binding sc im_get]. unfold ctx_get in Hy. cbn [im_get] in Hy.
        destruct (N.eqb y x).
        - injection Hy as <-. exists (VRecur key), []. split; [reflexivity|exact Hsch].
        - apply Hst, Hy. }
      eapply ok_bind; [apply (IH (push_scope s sc) e a _ t Hbody Hst2 Hrf)|].
      intros s1 [rv ra] Hv Hr1 Hs1. cbn [VT fst snd] in *. apply ok_ret.
      + split; [exact Hsch|exact Hv].
      + cbn [set_refs refs pop_scope]. apply rinsert_ok; [exact Hr1|]. exists t. cbn [fst snd]. split; [exact Hsch|]. split; [exact Hv|exact I].
      + cbn [set_refs scopes pop_scope]. rewrite Hs1. reflexivity.
    Qed.

    Lemma sound_step s e a G t : synth E G e = Some t -> stack_ok G (scopes s) -> refs_ok (refs s) ->
      ok_res (scopes s) (VT t) (eval_step lx P ev s e a).
    Proof.
      intros Hty Hst Hrf. set (fr := scopes s) in *. pose proof (IH_fr G fr Hst) as IHs.
      destruct e; cbn [synth] in Hty.
      - (* ETerm *)
        cbn [eval_step]. apply ok_pure; [apply compose_pure|]. intros x _. apply IHs; [exact Hty|exact Hrf|reflexivity].
      - (* ESub *) cbn [eval_step]. apply IHs; [exact Hty|exact Hrf|reflexivity].
      - (* EPrim *)
        apply if_some in Hty as [Hp <-]. cbn [eval_step].
        destruct (prim_value_typed p a Hp) as (v & -> & Hv). cbn [bind]. apply ok_ret; [exact Hv|exact Hrf|reflexivity].
      - injection Hty as <-. cbn [eval_step]. apply ok_ret; [reflexivity|exact Hrf|reflexivity].
      - injection Hty as <-. cbn [eval_step]. apply ok_ret; [reflexivity|exact Hrf|reflexivity].
      - injection Hty as <-. cbn [eval_step]. apply ok_ret; [reflexivity|exact Hrf|reflexivity].
      - exact (sound_decl s m i a G t Hty Hrf).
      - (* EConcat *) injection Hty as <-. cbn [eval_step]. apply ok_ret; [reflexivity|exact Hrf|reflexivity].
      - (* EBind *)
        cbn [eval_step]. destruct (Hst x t Hty) as (v & a' & Hl & Hv). unfold fr in Hl. rewrite Hl. apply ok_ret; [exact Hv|exact Hrf|reflexivity].
      - exact (sound_app s e args a G t Hty Hst Hrf).
      - exact (sound_rec s m i x e a G t Hty Hst Hrf).
      - (* EObj *)
        apply if_some in Hty as [Hps <-]. cbn [eval_step].
        eapply ok_map; [apply (casts_ok G fr Hst _ is_property_t (fun t Ht va => cast_property_pure t (fst va) Ht) ps s Hps Hrf eq_refl)|].
        intros props _. reflexivity.
      - (* EProp *)
        destruct (synth E G e) as [t0|] eqn:He; [|discriminate Hty].
        apply if_some in Hty as [Hs0 <-]. cbn [eval_step].
        apply (cast_ok fr cast_schema _ _ t0 _ (IHs s e [] t0 He Hrf eq_refl) (cast_schema_pure t0 Hs0)).
        intros sc. cbn [VT fst vt]. eexists. reflexivity.
      - (* EUnary *)
        destruct (synth E G e) as [[|t0| |]|] eqn:He; try discriminate Hty. injection Hty as <-. cbn [eval_step].
        apply (cast_ok fr (fun v => cast_property (fst v)) _ _ _ _ (IHs s e [] _ He Hrf eq_refl) (fun va => cast_property_pure (TProperty t0) (fst va) eq_refl)).
        intros pr. cbn [VT fst vt]. eexists. reflexivity.
      - (* EArr *)
        apply if_some in Hty as [He <-]. cbn [eval_step].
        apply has_some in He as (t0 & He & Hs0).
        apply (cast_ok fr cast_schema _ _ t0 _ (IHs s e [] t0 He Hrf eq_refl) (cast_schema_pure t0 Hs0)).
        intros sc. reflexivity.
      - (* EOp *)
        destruct op as [|[[p|p|]|[p|p|]|]]; cbn beta iota in Hty; try discriminate Hty.
        + (* join *)
          apply if_some in Hty as [Hes <-]. cbn [eval_step N.eqb Pos.eqb vop_of].
          eapply ok_map; [apply (casts_ok G fr Hst cast_schema _ (pure_at _ _ (cast_schema_pure (T BObject) eq_refl)) es s Hes Hrf eq_refl)|].
          intros ss _. reflexivity.
        + (* range *)
          apply if_some in Hty as [Hes <-]. cbn [eval_step N.eqb Pos.eqb vop_of].
          eapply ok_map; [apply (casts_ok G fr Hst _ _ cast_ranges_pure es s Hes Hrf eq_refl)|].
          intros rs _. reflexivity.
        + (* sum *)
          destruct es as [|o1 es]; [discriminate Hty|].
          destruct (synth E G o1) as [t0|] eqn:Ho1; [|discriminate Hty].
          apply if_some in Hty as [Hes <-]. cbn [eval_step N.eqb Pos.eqb vop_of].
          apply andb_prop in Hes as [Hs0 Hes].
          eapply ok_map; [apply (casts_ok G fr Hst cast_schema _ (pure_at _ _ (cast_schema_pure t0 Hs0)) (o1 :: es) s Hes Hrf eq_refl)|].
          intros ss _. exact Hs0.
        + (* any *)
          apply if_some in Hty as [Hes <-]. cbn [eval_step N.eqb Pos.eqb vop_of].
          eapply ok_map; [apply (casts_ok G fr Hst _ _ cast_schema_pure es s Hes Hrf eq_refl)|].
          intros ss _. reflexivity.
      - (* ECont *)
        apply if_some in Hty as [Hc <-]. apply andb_prop in Hc as [Hbody Hms]. cbn [eval_step].
        eapply ok_bind; [apply (ocast_ok G fr Hst _ _ cast_schema_pure body s Hbody Hrf eq_refl)|].
        intros s1 schema _ Hr1 Hs1. cbn beta iota zeta.
        eapply ok_bind.
        { apply (eval_metas_ok fr (fun s0 e0 => ev s0 e0 []) G metas); [|exact Hms|exact Hr1|exact Hs1].
          intros s0 rhs t0 Ht0 Hr0 Hs0. apply IHs; assumption. }
        intros s2 [[status media] headers] _ Hr2 Hs2. apply ok_ret; [reflexivity|exact Hr2|exact Hs2].
      - (* EXfer *)
        apply if_some in Hty as [Hc <-]. cbn [eval_step].
        apply andb_prop in Hc as [Hc Hprm]. apply andb_prop in Hc as [Hc Hrg]. apply andb_prop in Hc as [_ Hdom].
        eapply ok_bind; [apply (ocast_ok G fr Hst _ _ (fun t _ va _ => cast_content_pure va) domain s Hdom Hrf eq_refl)|].
        intros s1 dom _ Hr1 Hs1. cbn beta iota zeta.
        apply has_some in Hrg as (tr & Htr & Hcr).
        eapply ok_bind; [apply (IHs s1 e [] tr Htr Hr1 Hs1)|].
        intros s2 rv Hrv Hr2 Hs2. cbn beta iota.
        apply ok_pure; [exact (cast_ranges_pure tr Hcr rv Hrv)|]. intros rg _.
        eapply ok_map; [apply (ocast_ok G fr Hst _ _ (fun t _ va _ => cast_object_pure (fst va)) params s2 Hprm Hr2 Hs2)|].
        intros prm _. reflexivity.
      - (* EUri *)
        apply if_some in Hty as [Hc <-]. cbn [eval_step].
        apply andb_prop in Hc as [Hc Hprm]. apply andb_prop in Hc as [Hne Hsegs].
        eapply ok_bind.
        { apply (map_st_ok fr (fun sg : str + expr => match sg with inl _ => true | inr v => is_tag (synth E G v) (TProperty (T BPrimitive)) end)
                           (fun _ => True)); [|exact Hsegs|exact Hrf|reflexivity].
          intros s0 [x|v] Hx Hr0 Hs0; [apply ok_ret; auto|]. apply is_tag_eq in Hx.
          apply (cast_ok fr (fun v => cast_property (fst v)) UVar _ _ _ (IHs s0 v [] _ Hx Hr0 Hs0) (fun va => cast_property_pure (TProperty (T BPrimitive)) (fst va) eq_refl)). auto. }
        intros s1 path [_ Hlen] Hr1 Hs1. cbn beta iota.
        eapply ok_map; [apply (ocast_ok G fr Hst _ _ (fun t _ va _ => cast_object_pure (fst va)) params s1 Hprm Hr1 Hs1)|].
        intros prm _. cbn [VT fst vt]. right. split; [reflexivity|]. intros ->. destruct segs; [discriminate Hne|discriminate Hlen].
      - (* ERel *)
        apply if_some in Hty as [Hc <-]. cbn [eval_step].
        apply andb_prop in Hc as [Hu Hxs]. apply is_tag_eq in Hu.
        eapply ok_bind; [apply (IHs s e [] _ Hu Hrf eq_refl)|].
        intros s1 [uv ua] Huv Hr1 Hs1. cbn beta iota. cbn [fst]. cbn [VT fst] in Huv.
        pose proof (cast_uri_typed uv Huv) as Hcu.
        destruct (cast_uri uv) as [[up uprm uex]|x|p|]; cbn [bind]; try contradiction; [|exact Hcu].
        eapply ok_map; [apply (casts_ok G fr Hst _ _ (pure_at _ _ (fun va => cast_transfer_pure (fst va))) xfers s1 Hxs Hr1 Hs1)|].
        intros ts _. reflexivity.
    Qed.
  End SoundStep.

  Lemma sound : forall n s e a G t,
    synth E G e = Some t -> stack_ok G (scopes s) -> refs_ok (refs s) ->
    ok_res (scopes s) (VT t) (eval lx P n s e a).
  Proof. induction n as [|n IH]; intros s e a G t; [intros; exact I|]. rewrite eval_S. apply sound_step, IH. Qed.

  Lemma refs_table_ok r : refs_ok r -> exists t, refs_table r = Ok t.
  Proof.
    unfold refs_ok. induction r as [|[k [[v a]|]] r IH]; intros Hr; cbn [refs_table].
    - eexists. reflexivity.
    - inversion Hr as [|? ? Hh Ht]; subst. destruct Hh as (t & Hs & Hv & _). cbn [fst snd] in *.
      destruct (cast_schema_typed v a t Hv Hs) as [sc ->]. cbn [bind].
      destruct (IH Ht) as [tb ->]. cbn [bind]. eexists. reflexivity.
    - inversion Hr as [|? ? Hh Ht]; subst. apply IH, Ht.
  Qed.

  (* any tags will do for the resources: the panic of [cast_relation] is an allowed one *)
  Theorem program_sound q n rs :
    forallb (fun r => has q (synth E [] r)) rs = true ->
    match eval_program lx P n rs with Panic p => allowed p | _ => True end.
  Proof.
    intros Hrs. unfold eval_program.
    assert (H : ok_res [] (fun bs : list relation => Forall (fun _ => True) bs /\ length bs = length rs)
                  (map_st (fun s r => do (s', v) <- eval lx P n s r []; do rel <- cast_relation (fst v); Ok (s', rel)) st0 rs)).
    { apply (map_st_ok [] (fun r => has q (synth E [] r)) (fun _ : relation => True)); [|exact Hrs|constructor|reflexivity].
      intros s x Hx Hr Hs. apply has_some in Hx as (t0 & Ht0 & _).
      apply (cast_ok [] (fun v => cast_relation (fst v)) (fun x => x) _ t0); [| |auto].
      - rewrite <- Hs. apply (sound n s x [] [] t0 Ht0); [intros y t' Hy; discriminate Hy|exact Hr].
      - intros va _. apply cast_relation_pure. }
    destruct (map_st _ st0 rs) as [[s1 rels]|x|p|]; cbn [ok_res bind] in *; try exact I; [|exact H].
    destruct H as (_ & Hr1 & _). destruct (refs_table_ok _ Hr1) as [tb ->]. exact I.
  Qed.
End Sound.

Lemma all2_nth {A B} (f : A -> B -> bool) : forall l1 l2 k, all2 f l1 l2 = true ->
  match nth_error l1 k, nth_error l2 k with
  | Some a, Some b => f a b = true
  | None, None => True
  | _, _ => False
  end.
Proof.
  induction l1 as [|x l1 IH]; intros [|y l2] k H; cbn [all2] in H; try discriminate H.
  - destruct k; exact I.
  - apply andb_prop in H as [Hxy H]. destruct k as [|k]; cbn [nth_error]; [exact Hxy|apply IH, H].
Qed.

Lemma decls_sig E P m i : all2 (fun ds ts => all2 (decl_okb E) ds ts) P (sig E) = true ->
  match get_decl P m i, sig_get E m i with
  | Some d, Some t => decl_okb E d t = true
  | None, None => True
  | _, _ => False
  end.
Proof.
  intros H. unfold get_decl, sig_get. pose proof (all2_nth _ _ _ (N.to_nat m) H) as Hm.
  destruct (nth_error P (N.to_nat m)) as [ds|], (nth_error (sig E) (N.to_nat m)) as [ts|]; try contradiction; [|exact I].
  exact (all2_nth _ _ _ (N.to_nat i) Hm).
Qed.

Lemma nth_error_combine {A B} : forall (l1 : list A) (l2 : list B) k a b,
  nth_error l1 k = Some a -> nth_error l2 k = Some b -> In (a, b) (combine l1 l2).
Proof.
  induction l1 as [|x l1 IH]; intros [|y l2] k a b H1 H2; destruct k; cbn in *; try discriminate.
  - injection H1 as <-. injection H2 as <-. left. reflexivity.
  - right. eapply IH; eassumption.
Qed.

Lemma named_in P E m i d t x :
  get_decl P m i = Some d -> sig_get E m i = Some t -> d_ref d = Some x -> In (x, t) (named P E).
Proof.
  unfold get_decl, sig_get, named. intros Hd Ht Hx.
  destruct (nth_error P (N.to_nat m)) as [ds|] eqn:Hm; [|discriminate Hd].
  destruct (nth_error (sig E) (N.to_nat m)) as [ts|] eqn:Hm'; [|discriminate Ht].
  apply in_flat_map. exists (ds, ts). split; [eapply nth_error_combine; eassumption|].
  cbn [fst snd]. apply in_flat_map. exists (d, t). split; [eapply nth_error_combine; eassumption|].
  cbn [fst snd]. rewrite Hx. left. reflexivity.
Qed.

Theorem typed_programs_lx E P rs lx n :
  wt_progb E P rs = true ->
  match eval_program lx P n rs with Panic p => allowed p | _ => True end.
Proof.
  unfold wt_progb. intros H. apply andb_prop in H as [H Hrs]. apply andb_prop in H as [Hds Hnamed].
  refine (program_sound E P _ _ _ lx _ n rs Hrs).
  - intros m i d Hd. pose proof (decls_sig E P m i Hds) as H. rewrite Hd in H.
    destruct (sig_get E m i) as [t|]; [|contradiction]. exists t. auto.
  - intros m i t Ht. pose proof (decls_sig E P m i Hds) as H. rewrite Ht in H.
    destruct (get_decl P m i) as [d|]; [|contradiction]. exists d. reflexivity.
  - intros m i d m' i' d' x t t' Hd Hd' Hx Hx' Ht Ht'.
    pose proof (named_in P E m i d t x Hd Ht Hx) as Hin.
    pose proof (named_in P E m' i' d' t' x Hd' Ht' Hx') as Hin'.
    unfold named_okb in Hnamed. rewrite forallb_forall in Hnamed. specialize (Hnamed _ Hin).
    rewrite forallb_forall in Hnamed. specialize (Hnamed _ Hin'). cbn [fst snd] in Hnamed.
    rewrite N.eqb_refl in Hnamed. cbn [negb orb] in Hnamed. apply UnifyProofs.tag_eqb_iff, Hnamed.
Qed.

Corollary typed_programs E P rs n :
  wt_progb E P rs = true ->
  match eval_program false P n rs with Panic p => allowed p | _ => True end.
Proof. apply typed_programs_lx. Qed.

(** * witnesses: each allowed cast does panic on a well-typed program (the known findings) *)
Definition w_E (ts : list tag) : tenv := mk_tenv [ts] [].

(** K1: a range expression as the domain of a transfer -> cast_content *)
Lemma K1_typed_and_panics :
  let P : prog := [[]] in
  let rs := [ERel (ETerm [] (EUri [inl 30] None))
               [EXfer [0] (Some (ETerm [] (ESub (EOp 3 [ECont None []; ECont None []])))) (ECont None []) None]] in
  wt_progb (w_E []) P rs = true /\ eval_program false P 50 rs = Panic P_content.
Proof. cbv zeta. split; vm_compute; reflexivity. Qed.

(** K11: a join as headers -> cast_object *)
Lemma K11_typed_and_panics :
  let P : prog := [[]] in
  let rs := [ERel (ETerm [] (EUri [inl 30] None))
               [EXfer [0] None (ECont None [(1, EOp 0 [EObj []; EObj []])]) None]] in
  wt_progb (w_E []) P rs = true /\ eval_program false P 50 rs = Panic P_object.
Proof. cbv zeta. split; vm_compute; reflexivity. Qed.

(** K12: an alternative of URIs as the URI of a relation -> cast_uri; as a resource -> cast_relation *)
Lemma K12_typed_and_panics_uri :
  let P : prog := [[]] in
  let rs := [ERel (ETerm [] (ESub (EOp 2 [EUri [inl 30] None; EUri [inl 31] None]))) []] in
  wt_progb (w_E []) P rs = true /\ eval_program false P 50 rs = Panic P_uri.
Proof. cbv zeta. split; vm_compute; reflexivity. Qed.

Lemma K12_typed_and_panics_relation :
  let P : prog := [[]] in
  let rs := [ESub (EOp 2 [EUri [inl 30] None; EUri [inl 31] None])] in
  wt_progb (w_E []) P rs = true /\ eval_program false P 50 rs = Panic P_relation.
Proof. cbv zeta. split; vm_compute; reflexivity. Qed.

(** K21: without the consistency of @names the theorem fails: two declarations named @a (40)
    of different kinds; the checker rejects the program, the evaluation panics in cast_object *)
Lemma K21_conflated_reference :
  let P : prog := [[mk_decl (Some 40) false [] [] (EPrim 2)]; [mk_decl (Some 40) false [] [] (EObj [])]] in
  let E := mk_tenv [[T BPrimitive]; [T BObject]] [] in
  let rs := [ERel (ETerm [] (EUri [inl 30] None))
               [EXfer [0] None (ECont (Some (EDecl 0 0)) [(1, EDecl 1 0)]) None]] in
  wt_progb E P rs = false /\ named_okb (named P E) = false /\ eval_program false P 50 rs = Panic P_object.
Proof. cbv zeta. repeat split; vm_compute; reflexivity. Qed.

(** non-vacuity: the running example of EvalProofs is well typed and evaluates *)
Lemma ex_well_typed :
  let E := mk_tenv [[TFunc [T BPrimitive] (T BObject); TFunc [T BPrimitive] (T BObject)]] [] in
  wt_progb E EvalProofs.ex_P EvalProofs.ex_rs = true /\ exists r, eval_program false EvalProofs.ex_P 50 EvalProofs.ex_rs = Ok r.
Proof. cbv zeta. split; [vm_compute; reflexivity|]. eexists. vm_compute. reflexivity. Qed.

Lemma ctx_get_in x G t : ctx_get x G = Some t -> In x (map fst G).
Proof.
  unfold ctx_get. induction G as [|[k w] G IH]; cbn [im_get map fst In]; [discriminate|].
  destruct (N.eqb_spec x k) as [->|_]; [left; reflexivity|intros H; right; apply IH, H].
Qed.

Lemma all2_forallb {A B} (f : A -> B -> bool) (q : A -> bool) : forall l1 l2,
  (forall a b, In a l1 -> f a b = true -> q a = true) -> all2 f l1 l2 = true -> forallb q l1 = true.
Proof.
  induction l1 as [|a l1 IH]; intros [|b l2] H Hall; cbn [all2 forallb] in *; try reflexivity; try discriminate Hall.
  apply andb_prop in Hall as [H1 H2]. rewrite (H a b (or_introl eq_refl) H1). apply (IH l2); [intros x y Hx; apply H; right; exact Hx|exact H2].
Qed.

Lemma synth_closed E e : forall G t, synth E G e = Some t -> closed (map fst G) e = true.
Proof.
  pattern e. apply expr_subs_ind. clear e. intros e IH G t H.
  (* every test of [synth] on a sub-expression has the form [has q], [is_tag o t0] being [has (fun t => tag_eqb t t0) o] *)
  assert (IHhas : forall c, In c (subs e) -> forall q G', has q (synth E G' c) = true -> closed (map fst G') c = true).
  { intros c Hc q G' Hq. apply has_some in Hq as (t0 & Ht0 & _). exact (IH c Hc G' t0 Ht0). }
  destruct e; cbn [synth closed subs] in *; try reflexivity.
  - exact (IH e (or_introl eq_refl) G t H).
  - exact (IH e (or_introl eq_refl) G t H).
  - apply existsb_exists. exists x. split; [eapply ctx_get_in, H|apply N.eqb_refl].
  - (* EApp *)
    apply synth_app in H as (bs & Hf & Hall).
    rewrite (IH e (or_introl eq_refl) G _ Hf). cbn [andb].
    apply (all2_forallb (fun a b => is_tag (synth E G a) b) (closed (map fst G)) args bs); [|exact Hall].
    intros a b Hin Hab. exact (IHhas a (or_intror Hin) _ G Hab).
  - (* ERec *)
    destruct (rec_get E m i) as [t0|]; [|discriminate H].
    apply if_some in H as [Hc _]. apply andb_prop in Hc as [_ Hb]. exact (IHhas e (or_introl eq_refl) _ ((x, t0) :: G) Hb).
  - (* EObj *)
    apply if_some in H as [Hps _]. exact (forallb_impl _ _ ps (fun o Ho => IHhas o Ho _ G) Hps).
  - destruct (synth E G e) as [t0|] eqn:He; [|discriminate H]. exact (IH e (or_introl eq_refl) G _ He).
  - destruct (synth E G e) as [[|t0| |]|] eqn:He; try discriminate H. exact (IH e (or_introl eq_refl) G _ He).
  - apply if_some in H as [He _]. exact (IHhas e (or_introl eq_refl) _ G He).
  - (* EOp *)
    destruct op as [|[[p|p|]|[p|p|]|]]; cbn beta iota in H; try discriminate H.
    + apply if_some in H as [Hes _]. exact (forallb_impl _ _ es (fun o Ho => IHhas o Ho _ G) Hes).
    + apply if_some in H as [Hes _]. exact (forallb_impl _ _ es (fun o Ho => IHhas o Ho _ G) Hes).
    + destruct es as [|o1 es]; [discriminate H|]. destruct (synth E G o1) as [t0|] eqn:Ho1; [|discriminate H].
      apply if_some in H as [Hes _]. apply andb_prop in Hes as [_ Hes].
      exact (forallb_impl _ _ (o1 :: es) (fun o Ho => IHhas o Ho _ G) Hes).
    + apply if_some in H as [Hes _]. exact (forallb_impl _ _ es (fun o Ho => IHhas o Ho _ G) Hes).
  - (* ECont *)
    apply if_some in H as [Hc _]. apply andb_prop in Hc as [Hbody Hms].
    apply andb_true_intro. split.
    + destruct body as [b|]; [|reflexivity]. exact (IHhas b (or_introl eq_refl) _ G Hbody).
    + revert Hms. apply forallb_impl. intros [k rhs] Hin H1.
      pose proof (fun q => IHhas rhs (in_or_app _ _ _ (or_intror (in_map snd _ _ Hin))) q G) as Hrhs.
      destruct k as [|[[p|p|]|[p|p|]|]]; try discriminate H1; exact (Hrhs _ H1).
  - (* EXfer *)
    apply if_some in H as [Hc _].
    apply andb_prop in Hc as [Hc Hprm]. apply andb_prop in Hc as [Hc Hrg]. apply andb_prop in Hc as [_ Hdom].
    apply andb_true_intro. split; [apply andb_true_intro; split|].
    + destruct domain as [d|]; [|reflexivity]. exact (IHhas d (or_introl eq_refl) _ G Hdom).
    + refine (IHhas e _ _ G Hrg). apply in_or_app. right. left. reflexivity.
    + destruct params as [p|]; [|reflexivity]. refine (IHhas p _ _ G Hprm). apply in_or_app. right. right. left. reflexivity.
  - (* EUri *)
    apply if_some in H as [Hc _].
    apply andb_prop in Hc as [Hc Hprm]. apply andb_prop in Hc as [_ Hsegs].
    apply andb_true_intro. split.
    + revert Hsegs. apply forallb_impl. intros [x|v] Hin H1; [reflexivity|].
      refine (IHhas v (in_or_app _ _ _ (or_introl _)) _ G H1). apply in_flat_map. exists (inr v). split; [exact Hin|left; reflexivity].
    + destruct params as [p|]; [|reflexivity]. refine (IHhas p _ _ G Hprm). apply in_or_app. right. left. reflexivity.
  - (* ERel *)
    apply if_some in H as [Hc _].
    apply andb_prop in Hc as [Hu Hxs]. rewrite (IHhas e (or_introl eq_refl) _ G Hu). cbn [andb].
    exact (forallb_impl _ _ xfers (fun o Ho => IHhas o (or_intror Ho) _ G) Hxs).
Qed.

Lemma wt_resources_closed E P rs : wt_progb E P rs = true -> forallb (closed []) rs = true.
Proof.
  unfold wt_progb. intros H. apply andb_prop in H as [_ Hrs].
  apply (forallb_impl (fun r => has relation_like_t (synth E [] r))); [|exact Hrs].
  intros r _ Hr. apply has_some in Hr as (t & Ht & _). exact (synth_closed E r [] t Ht).
Qed.
