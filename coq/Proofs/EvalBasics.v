(** What the proofs about the evaluator model share, in this order: the keys of the reference
    table and insertion-ordered maps, also under a map of keys and values; the pure steps
    (casts, primitives); the immediate sub-expressions of an expression, with their induction
    principle and one-level map, and programs whose declaration bodies are mapped; one step of
    [eval] with the recursive calls as a parameter; the induction that carries a relation
    between states through an evaluation. *)
From Oal Require Import Eval.

Lemma rkey_eqb_eq a b : rkey_eqb a b = true -> a = b.
Proof.
  destruct a, b; cbn; try discriminate; intros H.
  - f_equal. apply N.eqb_eq, H.
  - apply andb_prop in H as [H1 H2]. f_equal; apply N.eqb_eq; assumption.
  - apply andb_prop in H as [H12 H3]. apply andb_prop in H12 as [H1 H2]. f_equal; apply N.eqb_eq; assumption.
Qed.
Lemma rkey_eqb_refl a : rkey_eqb a a = true.
Proof. destruct a; cbn; rewrite ?N.eqb_refl; reflexivity. Qed.
Lemma rkey_eqb_iff a b : rkey_eqb a b = true <-> a = b.
Proof. split; [apply rkey_eqb_eq|intros ->; apply rkey_eqb_refl]. Qed.

(** Insertion-ordered maps whose key test decides equality, as [N.eqb] does by [N.eqb_eq] and
    [rkey_eqb] by [rkey_eqb_iff]. *)
Section IndexMapFacts.
  Context {K V : Type} {eqb : K -> K -> bool}.
  Hypothesis eqb_iff : forall a b, eqb a b = true <-> a = b.
  Implicit Types (m : list (K * V)).

  Lemma eqb_refl a : eqb a a = true.
  Proof. apply eqb_iff. reflexivity. Qed.

  Lemma eqb_neq a b : a <> b -> eqb a b = false.
  Proof. intros H. destruct (eqb a b) eqn:E; [destruct (H (proj1 (eqb_iff a b) E))|reflexivity]. Qed.

  Lemma im_get_in k m x : im_get eqb k m = Some x -> In (k, x) m.
  Proof.
    induction m as [|[k' y] m IH]; cbn [im_get]; [discriminate|].
    destruct (eqb k k') eqn:E; [apply eqb_iff in E as <-; intros [= ->]; left; reflexivity|intros H; right; apply IH, H].
  Qed.

  Lemma im_get_none k m : im_get eqb k m = None <-> ~ In k (map fst m).
  Proof.
    induction m as [|[k' y] m IH]; cbn [im_get map fst In]; [split; [intros _ []|reflexivity]|].
    destruct (eqb k k') eqn:E.
    - apply eqb_iff in E. split; [discriminate|intros H; destruct (H (or_introl (eq_sym E)))].
    - rewrite IH. split; [intros H [->|H']; [rewrite eqb_refl in E; discriminate|exact (H H')]|intros H H'; apply H; right; exact H'].
  Qed.

  Lemma im_insert_in k x m k' z : In (k', z) (im_insert eqb k x m) -> (k' = k /\ z = x) \/ In (k', z) m.
  Proof.
    induction m as [|[k0 y] m IH]; cbn [im_insert In].
    - intros [[= <- <-]|[]]. left. auto.
    - destruct (eqb k k0) eqn:E.
      + apply eqb_iff in E as <-. intros [[= <- <-]|H]; [left; auto|right; right; exact H].
      + intros [H|H]; [right; left; exact H|]. destruct (IH H) as [H'|H']; [left; exact H'|right; right; exact H'].
  Qed.

  Lemma im_insert_keys k x m k' : In k' (map fst (im_insert eqb k x m)) <-> k' = k \/ In k' (map fst m).
  Proof.
    induction m as [|[k0 y] m IH]; cbn [im_insert map fst In].
    - split; [intros [<-|[]]|intros [->|[]]]; left; reflexivity.
    - destruct (eqb k k0) eqn:E; cbn [map fst In].
      + apply eqb_iff in E as <-. split; [intros H; right; exact H|intros [->|H]; [left; reflexivity|exact H]].
      + rewrite IH. split; intros [H|[H|H]]; auto.
  Qed.

  Lemma im_insert_nodup k x m : NoDup (map fst m) -> NoDup (map fst (im_insert eqb k x m)).
  Proof.
    induction m as [|[k0 y] m IH]; cbn [im_insert map fst]; intros H; [constructor; [intros []|constructor]|].
    inversion H as [|? ? Hn Hd]; subst. destruct (eqb k k0) eqn:E; cbn [map fst]; [exact H|].
    constructor; [|apply IH, Hd]. intros Hin. apply im_insert_keys in Hin as [->|Hin]; [|exact (Hn Hin)].
    rewrite eqb_refl in E. discriminate.
  Qed.

  Lemma im_insert_Forall (Q : K * V -> Prop) k x m : Forall Q m -> Q (k, x) -> Forall Q (im_insert eqb k x m).
  Proof.
    intros Hm Hk. induction Hm as [|[k0 y] m Hh Ht IH]; cbn [im_insert]; [constructor; [exact Hk|constructor]|].
    destruct (eqb k k0) eqn:E; [apply eqb_iff in E as <-|]; constructor; assumption.
  Qed.

  Lemma im_get_insert_same k x m : im_get eqb k (im_insert eqb k x m) = Some x.
  Proof.
    induction m as [|[k0 y] m IH]; cbn [im_insert im_get]; [rewrite eqb_refl; reflexivity|].
    destruct (eqb k k0) eqn:E; cbn [im_get]; rewrite E; [reflexivity|exact IH].
  Qed.

  Lemma im_get_insert_other k k' x m : k <> k' -> im_get eqb k (im_insert eqb k' x m) = im_get eqb k m.
  Proof.
    intros Hne. induction m as [|[k0 y] m IH]; cbn [im_insert im_get]; [rewrite (eqb_neq _ _ Hne); reflexivity|].
    destruct (eqb k' k0) eqn:E; cbn [im_get]; [apply eqb_iff in E as <-; rewrite (eqb_neq _ _ Hne)|rewrite IH]; reflexivity.
  Qed.
End IndexMapFacts.

(** a map whose keys go through [fk] and whose values go through [fv], when [fk] respects
    the comparison of keys; [F] is the caller's own function on entries, in whatever form it is
    written, and [F_spec] says that it does this *)
Section IndexMapMap.
  Context {K V K' V' : Type} (eqb : K -> K -> bool) (eqb' : K' -> K' -> bool).
  Variables (fk : K -> K') (fv : V -> V') (F : K * V -> K' * V').
  Hypothesis F_spec : forall k v, F (k, v) = (fk k, fv v).
  Hypothesis eqb_fk : forall a b, eqb' (fk a) (fk b) = eqb a b.

  Lemma im_get_map x m : im_get eqb' (fk x) (map F m) = option_map fv (im_get eqb x m).
  Proof.
    induction m as [|[k v] m IH]; [reflexivity|]. cbn [map]. rewrite F_spec. cbn [im_get]. rewrite eqb_fk.
    destruct (eqb x k); [reflexivity|exact IH].
  Qed.

  Lemma im_insert_map k v m : im_insert eqb' (fk k) (fv v) (map F m) = map F (im_insert eqb k v m).
  Proof.
    induction m as [|[k0 v0] m IH]; cbn [map]; [cbn [im_insert map]; rewrite F_spec; reflexivity|].
    rewrite F_spec. cbn [im_insert]. rewrite eqb_fk. destruct (eqb k k0); cbn [map]; rewrite F_spec; [reflexivity|].
    f_equal. exact IH.
  Qed.
End IndexMapMap.

Lemma eqb_inj (f : N -> N) : (forall x y, f x = f y -> x = y) -> forall x y, N.eqb (f x) (f y) = N.eqb x y.
Proof.
  intros Hf x y. destruct (N.eqb_spec x y) as [->|Hne]; [apply N.eqb_refl|].
  apply N.eqb_neq. intros H. apply Hne, Hf, H.
Qed.

Lemma bind_Ok {A B} (r : res A) (k : A -> res B) y : bind r k = Ok y -> exists x, r = Ok x /\ k x = Ok y.
Proof. destruct r; cbn [bind]; [eauto|discriminate..]. Qed.

Lemma bind_assoc {A B C} (r : res A) (f : A -> res B) (k : B -> res C) : bind (bind r f) k = bind r (fun x => bind (f x) k).
Proof. destruct r; reflexivity. Qed.

Lemma bind_nf {A B} (r : res A) (k : A -> res B) :
  r <> Fuel -> (forall x, r = Ok x -> k x <> Fuel) -> bind r k <> Fuel.
Proof. intros Hr Hk. destruct r as [x|x|p|]; cbn [bind]; try discriminate; [apply Hk; reflexivity|contradiction]. Qed.

Lemma cast_lambda_cases v lam : cast_lambda v = Ok lam -> lam = VLamInt \/ exists m i, lam = VLamExt m i.
Proof.
  induction v; cbn [cast_lambda]; intros H; try discriminate H; try (apply IHv, H); injection H as <-; eauto.
Qed.

Lemma lam_case {A} (Q : A -> Prop) lam f d : (forall m i, Q (f m i)) -> Q d ->
  Q (match lam with VLamExt m i => f m i | _ => d end).
Proof. intros Hf Hd. destruct lam; auto. Qed.

Lemma prim_value_cases p :
  p = 0%N \/ p = 1%N \/ p = 2%N \/ p = 3%N \/ p = 4%N \/ (N.ltb p 5 = false /\ forall a, prim_value p a = Panic P_node).
Proof.
  (* the numerals 0 to 4 and the shapes of a larger one, for which the last disjunct computes *)
  destruct p as [|[[[|[]|]|[[]|[]|]|]|[[|[]|]|[[]|[]|]|]|]]; try (do 5 right; split; reflexivity); auto 6.
Qed.

Definition opt_list {A} (o : option A) : list A := match o with Some x => [x] | None => [] end.

Lemma in_opt_list {A} (o : option A) x : In x (opt_list o) -> o = Some x.
Proof. destruct o; intros []; [subst; reflexivity|contradiction]. Qed.

Definition subs (e : expr) : list expr :=
  match e with
  | ETerm _ e' | ESub e' | ERec _ _ _ e' | EProp _ _ e' | EUnary _ e' | EArr e' => [e']
  | EApp f xs | ERel f xs => f :: xs
  | EObj es | EOp _ es => es
  | ECont body metas => opt_list body ++ map snd metas
  | EXfer _ dom rg prm => opt_list dom ++ rg :: opt_list prm
  | EUri segs prm => flat_map (fun sg : str + expr => match sg with inl _ => [] | inr e' => [e'] end) segs ++ opt_list prm
  | _ => []
  end.

Lemma expr_subs_ind (Q : expr -> Prop) : (forall e, (forall c, In c (subs e) -> Q c) -> Q e) -> forall e, Q e.
Proof.
  intros H. fix IH 1. intros e. apply H.
  assert (L : forall l : list expr, forall c, In c l -> Q c).
  { induction l as [|x l IHl]; intros c Hc; [destruct Hc|]. destruct Hc as [<-|Hc]; [apply IH|apply IHl, Hc]. }
  assert (O : forall o : option expr, forall c, In c (opt_list o) -> Q c).
  { intros [x|] c Hc; [|destruct Hc]. destruct Hc as [<-|[]]. apply IH. }
  destruct e; cbn [subs]; intros z Hz;
    try (destruct Hz; fail); try (destruct Hz as [<-|[]]; apply IH; fail).
  - destruct Hz as [<-|Hz]; [apply IH|apply (L _ _ Hz)].
  - apply (L _ _ Hz).
  - apply (L _ _ Hz).
  - apply in_app_or in Hz as [Hz|Hz]; [apply (O _ _ Hz)|].
    induction metas as [|[k x] ms IHm]; [destruct Hz|]. destruct Hz as [<-|Hz]; [apply IH|apply IHm, Hz].
  - apply in_app_or in Hz as [Hz|[<-|Hz]]; [apply (O _ _ Hz)|apply IH|apply (O _ _ Hz)].
  - apply in_app_or in Hz as [Hz|Hz]; [|apply (O _ _ Hz)].
    induction segs as [|[x|x] sg IHs]; [destruct Hz|apply IHs, Hz|]. destruct Hz as [<-|Hz]; [apply IH|apply IHs, Hz].
  - destruct Hz as [<-|Hz]; [apply IH|apply (L _ _ Hz)].
Qed.

Definition on_meta (g : expr -> expr) (ke : N * expr) : N * expr := match ke with (k, e') => (k, g e') end.
Definition on_seg (g : expr -> expr) (sg : str + expr) : str + expr :=
  match sg with inl x => inl x | inr e' => inr (g e') end.

Definition emap (g : expr -> expr) (e : expr) : expr :=
  match e with
  | ETerm anns e' => ETerm anns (g e')
  | ESub e' => ESub (g e')
  | EApp f args => EApp (g f) (map g args)
  | ERec m i x e' => ERec m i x (g e')
  | EObj ps => EObj (map g ps)
  | EProp name req e' => EProp name req (g e')
  | EUnary b e' => EUnary b (g e')
  | EArr e' => EArr (g e')
  | EOp op es => EOp op (map g es)
  | ECont body metas => ECont (option_map g body) (map (on_meta g) metas)
  | EXfer ms dom rg prm => EXfer ms (option_map g dom) (g rg) (option_map g prm)
  | EUri segs prm => EUri (map (on_seg g) segs) (option_map g prm)
  | ERel u xs => ERel (g u) (map g xs)
  | _ => e
  end.

Lemma emap_ext g h e : (forall c, In c (subs e) -> g c = h c) -> emap g e = emap h e.
Proof.
  intros H.
  assert (L : forall l : list expr, (forall c, In c l -> g c = h c) -> map g l = map h l) by (intros l; apply map_ext_in).
  assert (O : forall o : option expr, (forall c, In c (opt_list o) -> g c = h c) -> option_map g o = option_map h o).
  { intros [x|] Ho; cbn [option_map]; [rewrite (Ho x (or_introl eq_refl))|]; reflexivity. }
  destruct e; cbn [emap]; cbn [subs] in H; try reflexivity; try (rewrite (H e (or_introl eq_refl)); try reflexivity).
  - f_equal. apply L. intros c Hc. apply H. right. exact Hc.
  - f_equal. apply L, H.
  - f_equal. apply L, H.
  - f_equal; [apply O; intros c Hc; apply H, in_or_app; left; exact Hc|].
    apply map_ext_in. intros [k x] Hx. cbn [on_meta]. rewrite (H x); [reflexivity|]. apply in_or_app. right. apply (in_map snd _ _ Hx).
  - f_equal; [apply O; intros c Hc; apply H, in_or_app; left; exact Hc|apply H, in_or_app; right; left; reflexivity|].
    apply O. intros c Hc. apply H, in_or_app. right. right. exact Hc.
  - f_equal; [|apply O; intros c Hc; apply H, in_or_app; right; exact Hc].
    apply map_ext_in. intros [x|x] Hx; cbn [on_seg]; [reflexivity|]. rewrite (H x); [reflexivity|].
    apply in_or_app. left. apply in_flat_map. exists (inr x). split; [exact Hx|left; reflexivity].
  - f_equal. apply L. intros c Hc. apply H. right. exact Hc.
Qed.

Lemma emap_id e : emap (fun x => x) e = e.
Proof.
  assert (Hm : forall l, map (on_meta (fun x => x)) l = l) by (intros l; rewrite <- (map_id l) at 2; apply map_ext; intros []; reflexivity).
  assert (Hs : forall l, map (on_seg (fun x => x)) l = l) by (intros l; rewrite <- (map_id l) at 2; apply map_ext; intros []; reflexivity).
  assert (Ho : forall o : option expr, option_map (fun x => x) o = o) by (intros []; reflexivity).
  destruct e; cbn [emap]; rewrite ?map_id, ?Hm, ?Hs, ?Ho; reflexivity.
Qed.

Definition dmap (g : expr -> expr) (d : decl) : decl :=
  mk_decl (d_ref d) (d_rec d) (d_anns d) (d_params d) (g (d_rhs d)).

Lemma get_decl_map_decl (f : decl -> decl) P m i : get_decl (map (map f) P) m i = option_map f (get_decl P m i).
Proof.
  unfold get_decl. rewrite nth_error_map. destruct (nth_error P (N.to_nat m)) as [ds|]; [apply nth_error_map|reflexivity].
Qed.

Lemma get_decl_map g P m i : get_decl (map (map (dmap g)) P) m i = option_map (dmap g) (get_decl P m i).
Proof. exact (get_decl_map_decl (dmap g) P m i). Qed.

(** the key under which a memoised declaration is entered in the reference table *)
Definition decl_key (d : decl) (m i : N) : rkey :=
  match d_ref d with Some x => KNamed x | None => KDecl m i end.

Lemma decl_key_not_rec d m i m0 i0 c : decl_key d m i <> KRec m0 i0 c.
Proof. unfold decl_key. destruct (d_ref d); discriminate. Qed.

(** What an application does when the applied value is not a declared function: the built-in
    [concat]. In [eval] this code stands under the catch-all branch of the match on the applied
    value, that is sixteen times once the match is compiled; [eval_step] names it, so that a
    goal shows it once per branch as a small term. *)
Definition app_builtin (ev : st -> expr -> res (st * aval)) (s1 : st) (args : list expr) (ann : ymap) : res (st * aval) :=
  do (s2, vs) <- map_st ev s1 args;
  match vs with
  | [l; r] => do ru <- cast_uri (fst r); do lu <- cast_uri (fst l); do u <- uri_append lu ru; Ok (s2, (VUri u, ann))
  | _ => Panic P_concat_arity
  end.

(** [eval_step] is the body of [eval] at fuel [S n], with [eval n] replaced by [ev], the
    built-in branch of an application by its name [app_builtin] and the key of a memoised
    declaration by [decl_key]. Proofs unfold [eval_step] where they would unfold [eval]: the
    recursive calls then stay the constant [eval lx P n] instead of becoming copies of the
    fixpoint, which the kernel would compare with the constant by traversing the whole body,
    once per occurrence. *)
Section Step.
  Local Open Scope N_scope.
  Variable lexical : bool.
  Variable P : prog.
  Variable ev : st -> expr -> ymap -> res (st * aval).
  Definition eval_step (s : st) (e : expr) (ann : ymap) : res (st * aval) :=
      let ev0 := fun s e => ev s e [] in      (* eval_any(ctx, node, AnnRef::default()) *)
      match e with
      | ETerm anns e' =>
          do a <- compose anns []; ev s e' (extend ann a)
      | ESub e' => ev s e' ann
      | EPrim p => do v <- prim_value p ann; Ok (s, (v, ann))
      | ELitStr x => Ok (s, (VStr x, ann))
      | ELitNum x => Ok (s, (VNum x, ann))
      | ELitStat x => Ok (s, (VStat x, ann))
      | EConcat => Ok (s, (VLamInt, ann))
      | EBind x =>
          match lookup_binding x (scopes s) with
          | None => Panic P_binding
          | Some (v, prev) => Ok (s, (v, extend prev ann))
          end
      | EDecl m i =>
          match get_decl P m i with
          | None => Panic P_decl
          | Some d =>
              match d_params d with
              | _ :: _ => Ok (s, (VLamExt m i, ann))
              | [] =>
                  do da <- compose (d_anns d) [];
                  let rhs_ann := extend da ann in
                  if (match d_ref d with Some _ => true | None => false end) || d_rec d then
                    let key := decl_key d m i in
                    match rget key (refs s) with
                    | None =>
                        let s1 := set_refs s (rinsert key None (refs s)) in
                        do (s2, v) <- ev s1 (d_rhs d) rhs_ann;
                        Ok (set_refs s2 (rinsert key (Some v) (refs s2)), (VRef key (fst v) (snd v), rhs_ann))
                    | Some (Some v) => Ok (s, (VRef key (fst v) (snd v), rhs_ann))
                    | Some None => Ok (s, (VRecur key, rhs_ann))
                    end
                  else ev s (d_rhs d) rhs_ann
              end
          end
      | EApp f args =>
          do (s1, fv) <- ev s f [];
          do lam <- cast_lambda (fst fv);
          match lam with
          | VLamExt m i =>
              match get_decl P m i with
              | None => Panic P_decl
              | Some d =>
                  do (s2, sc) <- bind_args ev0 s1 (d_params d) args [];
                  do da <- compose (d_anns d) [];
                  let app_ann := extend da ann in
                  if lexical then
                    if Nat.ltb (length args) (length (d_params d)) then Panic P_arity else
                    do (s3, r) <- ev (mk_st (refs s2) [(seq s2 + 1, sc)] (seq s2 + 1)) (d_rhs d) app_ann;
                    Ok (mk_st (refs s3) (scopes s2) (seq s3), r)
                  else
                    do (s3, r) <- ev (push_scope s2 sc) (d_rhs d) app_ann;
                    Ok (pop_scope s3, r)
              end
          | _ => app_builtin ev0 s1 args ann
          end
      | ERec m i x e' =>
          let key := KRec m i (top_scope_id s) in
          do (s1, rhs) <- ev (push_scope s [(x, (VRecur key, []))]) e' ann;
          let s2 := pop_scope s1 in
          Ok (set_refs s2 (rinsert key (Some rhs) (refs s2)), (VRef key (fst rhs) (snd rhs), []))
      | EObj ps =>
          do (s1, props) <- map_st (fun s p => do (s', v) <- ev0 s p; do pr <- cast_property (fst v); Ok (s', pr)) s ps;
          Ok (s1, (VObj props, ann))
      | EProp name req e' =>
          do (s1, v) <- ev0 s e';
          do sc <- cast_schema v;
          let required := match get_bool ann K_required with Some b => Some b | None => req end in
          Ok (s1, (VProp (Prop_ name sc (get_string ann K_description) required), ann))
      | EUnary b e' =>
          do (s1, v) <- ev0 s e';
          do p <- cast_property (fst v);
          Ok (s1, (VProp (set_required p b), ann))
      | EArr e' =>
          do (s1, v) <- ev0 s e';
          do sc <- cast_schema v;
          Ok (s1, (VArr sc, ann))
      | EOp op es =>
          if N.eqb op 3 then
            do (s1, rs) <- map_st (fun s o => do (s', v) <- ev0 s o; do r <- cast_ranges v; Ok (s', r)) s es;
            Ok (s1, (VRanges (fold_left (im_extend rgkey_eqb) rs []), ann))
          else
            match vop_of op with
            | None => Panic P_node
            | Some o =>
                do (s1, ss) <- map_st (fun s o => do (s', v) <- ev0 s o; do sc <- cast_schema v; Ok (s', sc)) s es;
                Ok (s1, (VOp o ss, ann))
            end
      | ECont body metas =>
          do (s1, schema) <- opt_st (fun s b => do (s', v) <- ev0 s b; do sc <- cast_schema v; Ok (s', sc)) s body;
          let status0 := match schema with None => Some (StCode 204) | Some _ => None end in
          do (s2, (status, media, headers)) <- eval_metas ev0 s1 metas (status0, None, None);
          Ok (s2, (VCont (Content schema status media headers (get_string ann K_description) (get_props ann K_examples)), ann))
      | EXfer methods domain range params =>
          do (s1, dom) <- opt_st (fun s d => do (s', v) <- ev0 s d; do c <- cast_content v; Ok (s', c)) s domain;
          let dom := match dom with Some c => c | None => Content None None None None None None end in
          do (s2, rv) <- ev0 s1 range;
          do rg <- cast_ranges rv;
          do (s3, prm) <- opt_st (fun s p => do (s', v) <- ev0 s p; do o <- cast_object (fst v); Ok (s', o)) s2 params;
          Ok (s3, (VXfer (Xfer (method_bits methods) dom rg prm (get_string ann K_description) (get_string ann K_summary)
                                (match get_enum ann K_tags with Some l => l | None => [] end)
                                (get_string ann K_operationId)), ann))
      | EUri segs params =>
          do (s1, path) <-
             map_st (fun s (sg : str + expr) =>
                       match sg with
                       | inl x => Ok (s, ULit x)
                       | inr v => do (s', pv) <- ev0 s v; do p <- cast_property (fst pv); Ok (s', UVar p)
                       end) s segs;
          do (s2, prm) <- opt_st (fun s p => do (s', v) <- ev0 s p; do o <- cast_object (fst v); Ok (s', o)) s1 params;
          Ok (s2, (VUri (Uri path prm (get_string ann K_example)), ann))
      | ERel u xfers =>
          do (s1, uv) <- ev0 s u;
          do ur <- cast_uri (fst uv);
          do (s2, ts) <- map_st (fun s x => do (s', v) <- ev0 s x; do t <- cast_transfer (fst v); Ok (s', t)) s1 xfers;
          Ok (s2, (VRel (Rel ur (fold_left add_xfer ts no_xfers)), ann))
      end.
End Step.

Lemma eval_S lx P n s e a : eval lx P (S n) s e a = eval_step lx P (eval lx P n) s e a.
Proof. reflexivity. Qed.

Lemma eval_unfold lx P n s e a : eval lx P n s e a = Fuel \/ exists ev, eval lx P n s e a = eval_step lx P ev s e a.
Proof. destruct n; [left; reflexivity|right]. exists (eval lx P n). apply eval_S. Qed.

(** A relation [R] between states that does not look at the values (the stack is put back,
    identifiers are only issued, ...) holds between the states around every evaluation as soon
    as it holds around the four places where [eval] touches the state: memoising a declaration,
    the body of an application under either semantics, and a recursion point. [Inv] is what
    [R] may assume of the state it starts from. *)
Section EvalRel.
  Variable Inv : st -> Prop.
  Variable R : st -> st -> Prop.
  Hypothesis R_refl : forall s, R s s.
  Hypothesis R_trans : forall s s1 s2, R s s1 -> R s1 s2 -> R s s2.
  Hypothesis R_inv : forall s s', Inv s -> R s s' -> Inv s'.
  (* a recursion key is excluded here: it carries a scope identifier, which a relation may constrain
     ([R_rec] is where such a key is written) *)
  Hypothesis R_memo : forall s k v, (forall m i c, k <> KRec m i c) -> R s (set_refs s (rinsert k v (refs s))).
  Hypothesis R_call : forall s sc, Inv s ->
    Inv (push_scope s sc) /\ forall s', R (push_scope s sc) s' -> R s (pop_scope s').
  Hypothesis R_lexical : forall s sc, Inv s ->
    Inv (mk_st (refs s) [(seq s + 1, sc)] (seq s + 1))%N /\
    forall s', R (mk_st (refs s) [(seq s + 1, sc)] (seq s + 1))%N s' -> R s (mk_st (refs s') (scopes s) (seq s')).
  Hypothesis R_rec : forall s s' m i v, Inv s -> R s s' ->
    R s' (set_refs s' (rinsert (KRec m i (top_scope_id s)) v (refs s'))).

  Definition post {B} (s : st) (r : res (st * B)) : Prop := match r with Ok (s', _) => R s s' | _ => True end.

  Lemma post_ret {B} s (b : B) : post s (Ok (s, b)).
  Proof. apply R_refl. Qed.

  Lemma post_pure {B C} s (c : res B) (k : B -> res (st * C)) : (forall x, c = Ok x -> post s (k x)) -> post s (bind c k).
  Proof. intros Hk. destruct c; cbn [bind post]; try exact I. apply Hk. reflexivity. Qed.

  Lemma post_pre {B} s s1 (r : res (st * B)) : R s s1 -> post s1 r -> post s r.
  Proof. destruct r as [[s2 b]| | |]; cbn [post]; [apply R_trans|auto..]. Qed.

  Lemma post_bind {B C} s (r : res (st * B)) (k : st * B -> res (st * C)) :
    Inv s -> post s r -> (forall s1 b, Inv s1 -> post s1 (k (s1, b))) -> post s (bind r k).
  Proof.
    intros Hi Hr Hk. destruct r as [[s1 b]| | |]; cbn [bind post] in *; try exact I.
    exact (post_pre s s1 _ Hr (Hk s1 b (R_inv s s1 Hi Hr))).
  Qed.

  Lemma post_map {B C} s (r : res (st * B)) (k : B -> C) : post s r -> post s (do (s1, b) <- r; Ok (s1, k b)).
  Proof. destruct r as [[s1 b]| | |]; cbn [bind post]; auto. Qed.

  Lemma post_back {B} s s' (back : st -> st) (r : res (st * B)) :
    (forall s'', R s' s'' -> R s (back s'')) -> post s' r -> post s (do (s1, b) <- r; Ok (back s1, b)).
  Proof. intros Hback. destruct r as [[s1 b]| | |]; cbn [bind post]; auto. Qed.

  Section Lists.
    Context {X B : Type}.
    Variable f : st -> X -> res (st * B).
    Hypothesis Hf : forall s x, Inv s -> post s (f s x).

    Lemma map_st_post l : forall s, Inv s -> post s (map_st f s l).
    Proof.
      induction l as [|x l IH]; intros s Hi; cbn [map_st]; [apply post_ret|].
      apply post_bind; [exact Hi|apply Hf, Hi|]. intros s1 b Hi1.
      apply post_map, IH, Hi1.
    Qed.

    Lemma opt_st_post o s : Inv s -> post s (opt_st f s o).
    Proof.
      intros Hi. destruct o as [x|]; cbn [opt_st]; [apply post_map, Hf, Hi|apply post_ret].
    Qed.
  End Lists.

  Section Args.
    Variable ev : st -> expr -> res (st * aval).
    Hypothesis Hev : forall s e, Inv s -> post s (ev s e).

    Lemma bind_args_post args : forall s ps sc, Inv s -> post s (bind_args ev s ps args sc).
    Proof.
      induction args as [|a args IH]; intros s [|p ps] sc Hi; cbn [bind_args]; try (apply post_ret).
      apply post_bind; [exact Hi|apply Hev, Hi|]. intros s1 [v a1] Hi1. apply IH, Hi1.
    Qed.

    Lemma eval_metas_post ms : forall s acc, Inv s -> post s (eval_metas ev s ms acc).
    Proof.
      induction ms as [|[k rhs] ms IH]; intros s [[status media] headers] Hi; cbn [eval_metas]; [apply post_ret|].
      apply post_bind; [exact Hi|apply Hev, Hi|]. intros s1 v Hi1.
      destruct k as [|[p|p|]]; apply post_pure; intros x _; apply IH, Hi1.
    Qed.

    Lemma cast_post {B C} (c : aval -> res B) (g : B -> C) s e : Inv s -> post s (do (s', v) <- ev s e; do x <- c v; Ok (s', g x)).
    Proof.
      intros Hi. apply post_bind; [exact Hi|apply Hev, Hi|]. intros s1 v Hi1.
      apply post_pure. intros x _. apply post_ret.
    Qed.
  End Args.

  Lemma step_rel lx P (ev : st -> expr -> ymap -> res (st * aval)) :
    (forall s e a, Inv s -> post s (ev s e a)) -> forall s e a, Inv s -> post s (eval_step lx P ev s e a).
  Proof.
    intros IH s e a Hi.
    pose (ev0 := fun s e => ev s e []).
    assert (IH0 : forall s e, Inv s -> post s (ev0 s e)) by (intros; apply IH; assumption).
    pose proof (@cast_post ev0 IH0) as Hcast.
    destruct e; cbn [eval_step].
    - apply post_pure. intros x _. apply IH, Hi.
    - apply IH, Hi.
    - apply post_pure. intros v _. apply post_ret.
    - apply post_ret.
    - apply post_ret.
    - apply post_ret.
    - (* EDecl: around the evaluation of a memoised declaration its key is inserted twice *)
      destruct (get_decl P m i) as [d|]; [|exact I]. destruct (d_params d); [|apply post_ret].
      apply post_pure. intros da _.
      destruct ((match d_ref d with Some _ => true | None => false end) || d_rec d); [|apply IH, Hi].
      set (key := decl_key d m i).
      assert (Hkey : forall m0 i0 c, key <> KRec m0 i0 c) by (intros; apply decl_key_not_rec).
      destruct (rget key (refs s)) as [[v0|]|]; try (apply post_ret).
      pose proof (R_memo s key None Hkey) as H1. apply (post_pre s _ _ H1).
      apply post_bind; [exact (R_inv _ _ Hi H1)|apply IH, (R_inv _ _ Hi H1)|].
      intros s2 v Hi2. apply (R_memo s2 key _ Hkey).
    - apply post_ret.
    - destruct (lookup_binding x (scopes s)) as [[v prev]|]; [apply post_ret|exact I].
    - (* EApp *)
      apply post_bind; [exact Hi|apply IH0, Hi|]. intros s1 fv Hi1.
      apply post_pure. intros lam _. apply (lam_case (post s1)); [intros m i|].
      + destruct (get_decl P m i) as [d|]; [|exact I].
        apply post_bind; [exact Hi1|apply (bind_args_post ev0 IH0), Hi1|]. intros s2 sc Hi2.
        apply post_pure. intros da _. destruct lx.
        * destruct (Nat.ltb _ _); [exact I|]. destruct (R_lexical s2 sc Hi2) as [Hip Hback].
          apply (post_back _ _ _ _ Hback), IH, Hip.
        * destruct (R_call s2 sc Hi2) as [Hip Hback]. apply (post_back _ _ _ _ Hback), IH, Hip.
      + apply post_bind; [exact Hi1|apply (map_st_post ev0 IH0), Hi1|]. intros s2 vs Hi2.
        destruct vs as [|l [|r [|x vs]]]; try exact I.
        apply post_pure. intros ru _. apply post_pure. intros lu _. apply post_pure. intros u _. apply post_ret.
    - (* ERec *)
      destruct (R_call s [(x, (VRecur (KRec m i (top_scope_id s)), []))] Hi) as [Hip Hback].
      pose proof (IH _ e a Hip) as Hb.
      destruct (ev _ e a) as [[s1 rhs]| | |]; try exact I.
      exact (R_trans _ _ _ (Hback _ Hb) (R_rec s _ m i _ Hi (Hback _ Hb))).
    - apply post_map, (map_st_post _ (Hcast _ _ _ _)), Hi.
    - apply Hcast, Hi.
    - apply Hcast, Hi.
    - apply Hcast, Hi.
    - (* EOp *)
      destruct (N.eqb op 3); [|destruct (vop_of op); [|exact I]]; apply post_map, (map_st_post _ (Hcast _ _ _ _)), Hi.
    - (* ECont *)
      apply post_bind; [exact Hi|apply (opt_st_post _ (Hcast _ _ _ _)), Hi|]. intros s1 schema Hi1.
      apply post_bind; [exact Hi1|apply (eval_metas_post ev0 IH0), Hi1|]. intros s2 [[status media] headers] Hi2. apply post_ret.
    - (* EXfer *)
      apply post_bind; [exact Hi|apply (opt_st_post _ (Hcast _ _ _ _)), Hi|]. intros s1 dom Hi1.
      apply post_bind; [exact Hi1|apply IH0, Hi1|]. intros s2 rv Hi2. apply post_pure. intros rg _.
      apply post_map, (opt_st_post _ (Hcast _ _ _ _)), Hi2.
    - (* EUri *)
      apply post_bind; [exact Hi| |].
      { apply map_st_post; [|exact Hi]. intros s0 [x|v] Hi0; [apply post_ret|apply Hcast, Hi0]. }
      intros s1 path Hi1.
      apply post_map, (opt_st_post _ (Hcast _ _ _ _)), Hi1.
    - (* ERel *)
      apply post_bind; [exact Hi|apply IH0, Hi|]. intros s1 uv Hi1. apply post_pure. intros ur _.
      apply post_map, (map_st_post _ (Hcast _ _ _ _)), Hi1.
  Qed.

  Theorem eval_rel lx P : forall n s e a, Inv s -> post s (eval lx P n s e a).
  Proof. induction n as [|n IH]; intros s e a; [intros _; exact I|]. rewrite eval_S. apply step_rel, IH. Qed.

  Lemma eval_program_rel lx P n rs rels table : Inv st0 -> eval_program lx P n rs = Ok (rels, table) ->
    exists s1, R st0 s1 /\ refs_table (refs s1) = Ok table.
  Proof.
    unfold eval_program. intros H0 H.
    pose proof (map_st_post _ (cast_post (fun s e => eval lx P n s e []) (fun s e => eval_rel lx P n s e [])
                                 (fun v => cast_relation (fst v)) (fun x => x)) rs st0 H0) as H1.
    destruct (map_st _ st0 rs) as [[s1 rels']| | |]; try discriminate H. cbn [bind] in H. exists s1. split; [exact H1|].
    destruct (refs_table (refs s1)) as [t| | |]; try discriminate H. injection H as _ <-. reflexivity.
  Qed.
End EvalRel.
