(** The memo table of the parser model never holds two results for one (cursor, tag), hence a
    memoised production is evaluated at most once per cursor, and the table has at most
    (number of tokens + 1) x (number of tags) entries: the part of "memoisation keeps parsing
    linear" that is about the table (the bound on token reads is measured, not proved).

    The argument needs the termination certificate of PegTerm ([cons], [rank]): while the body
    of a memoised production runs at cursor [s], every other memoised evaluation that starts
    at the same cursor is smaller in the order (rank of what may be called before a token is
    consumed, size of the expression); so the body cannot insert its own key. *)
From Coq Require Import Lia Arith PeanoNat List Bool.
From Oal Require Import ListFacts Peg PegProofs PegTerm.

Section Bound.
Variable class_ok : N -> N -> bool.
Variable is_trivia : N -> bool.
Variable K_IDENT_REF : N.
Variable g : nat -> pexp.
Variable cons : nat -> bool.
Variable rank : nat -> nat.
Variables R Z : nat.
Hypothesis Hg : forall nt, prod_okb g cons rank R Z nt = true.
Variable toks : list N.
Variable tag_body : N -> pexp.
Hypothesis g_wf : forall nt, PegProofs.wf_pexp tag_body (g nt).
Variable tags : list N.

Notation run := (Peg.run class_ok is_trivia K_IDENT_REF g toks).
Notation runm := (Peg.runm class_ok is_trivia K_IDENT_REF g toks).
Notation kind_at := (Peg.kind_at toks).
Notation wf := (PegProofs.wf_pexp tag_body).
Notation tok := (PegProofs.table_ok class_ok is_trivia K_IDENT_REF g toks tag_body).
Notation lrank := (PegTerm.lrank cons rank).
Notation consumes := (PegTerm.consumes cons).

Fixpoint ptags (p : pexp) : list N :=
  match p with
  | Memo tag a => tag :: ptags a
  | Seq2 a b | Alt2 a b | IfThen a b => ptags a ++ ptags b
  | Mk _ a | Collapse _ a => ptags a
  | _ => []
  end.
Hypothesis g_tags : forall nt, incl (ptags (g nt)) tags.

Definition keys (st : mstate) : list (nat * N) := map fst (table st).

Lemma run_bounded : forall n p s acc s' m, run n p s acc = Ok s' m -> s <= length toks -> s' <= length toks.
Proof.
  apply (run_Ok_ind _ _ _ _ _ (fun _ s _ s' _ => s <= length toks -> s' <= length toks)); auto.
  intros c s _ k Ek _ _. apply skip_bounds. exact (kind_at_lt toks s k Ek).
Qed.

(* the order on the memoised evaluations that start at one cursor: rank, then size *)
Definition lexle (a b : nat * nat) : Prop := fst a < fst b \/ (fst a = fst b /\ snd a <= snd b).
(* [kmeas tag] is [pmeas (Memo tag (tag_body tag))]: just above the body, so what the body puts
   in at its own cursor, being at most [pmeas] of the body, cannot be the key itself (adds_memo) *)
Definition kmeas (tag : N) : nat * nat := (lrank (tag_body tag), S (psize (tag_body tag))).
Definition pmeas (p : pexp) : nat * nat := (lrank p, psize p).

Lemma lexle_mono k a1 b1 a2 b2 : lexle k (a1, b1) -> a1 <= a2 -> (a1 = a2 -> b1 <= b2) -> lexle k (a2, b2).
Proof. unfold lexle. destruct k as [k1 k2]. cbn [fst snd]. intros [H|[H1 H2]] Ha Hb; [left; lia|]. destruct (Nat.eq_dec a1 a2) as [->|]; [right; split; [lia|specialize (Hb eq_refl); lia]|left; lia]. Qed.

(** what a run adds to the table: pairwise different keys, none of them present before, each at
    a cursor not before the start (and within the tokens), with a known tag, and, when at the
    start cursor itself, not above the running expression in the order *)
Definition new_ok (p : pexp) (s : nat) (st : mstate) (new : list ((nat * N) * res)) : Prop :=
  NoDup (map fst new) /\
  forall s2 tag2, In (s2, tag2) (map fst new) ->
    ~ In (s2, tag2) (keys st) /\ s <= s2 /\ (s <= length toks -> s2 <= length toks) /\ In tag2 tags /\
    (s2 = s -> lexle (kmeas tag2) (pmeas p)).

Definition adds (p : pexp) (s : nat) (st st' : mstate) : Prop :=
  exists new, table st' = new ++ table st /\ new_ok p s st new.

Lemma adds_same p s st st' : table st' = table st -> adds p s st st'.
Proof. intros E. exists []. split; [exact E|]. split; [constructor|]. intros s2 tag2 []. Qed.

Lemma adds_weaken p a s st st' :
  lrank a <= lrank p /\ (lrank a = lrank p -> psize a <= psize p) -> adds a s st st' -> adds p s st st'.
Proof.
  intros [Hl Hz] (new & E & Hnd & Hk). exists new. split; [exact E|]. split; [exact Hnd|].
  intros s2 tag2 Hin. destruct (Hk s2 tag2 Hin) as (A & B & C & D & F).
  repeat split; try assumption. intros Heq. exact (lexle_mono _ _ _ _ _ (F Heq) Hl Hz).
Qed.

(** [a] from [s], then [b] from a later cursor [s1] (which needs to be below [p] only if [s1 = s]) *)
Lemma adds_then p a b s s1 st st1 st2 :
  adds a s st st1 -> adds b s1 st1 st2 -> s <= s1 -> (s <= length toks -> s1 <= length toks) ->
  lrank a <= lrank p /\ (lrank a = lrank p -> psize a <= psize p) ->
  (s1 = s -> lrank b <= lrank p /\ (lrank b = lrank p -> psize b <= psize p)) ->
  adds p s st st2.
Proof.
  intros (na & Ea & Hnda & Hka) (nb & Eb & Hndb & Hkb) Hs Hlen [Hal Haz] Hb.
  assert (Hkeys1 : keys st1 = map fst na ++ keys st) by (unfold keys; rewrite Ea, map_app; reflexivity).
  exists (nb ++ na). split; [rewrite Eb, Ea; apply app_assoc|]. split.
  - rewrite map_app. apply NoDup_app_intro; [exact Hndb|exact Hnda|].
    intros [s2 tag2] Hinb Hina. destruct (Hkb s2 tag2 Hinb) as (A & _). apply A. rewrite Hkeys1. apply in_or_app. left. exact Hina.
  - intros s2 tag2 Hin. rewrite map_app in Hin. apply in_app_or in Hin as [Hin|Hin].
    + destruct (Hkb s2 tag2 Hin) as (A & B & C & D & F). repeat split.
      * intros H. apply A. rewrite Hkeys1. apply in_or_app. right. exact H.
      * exact (Nat.le_trans _ _ _ Hs B).
      * intros H. apply C, Hlen, H.
      * exact D.
      * intros ->. pose proof (Nat.le_antisymm _ _ B Hs) as E1. destruct (Hb E1) as [Hbl Hbz].
        exact (lexle_mono _ _ _ _ _ (F (eq_sym E1)) Hbl Hbz).
    + destruct (Hka s2 tag2 Hin) as (A & B & C & D & F). repeat split; try assumption.
      intros Heq. exact (lexle_mono _ _ _ _ _ (F Heq) Hal Haz).
Qed.

Lemma tlookup_none t s tag : tlookup t s tag = None -> ~ In (s, tag) (map fst t).
Proof.
  induction t as [|[[s' tag'] r] t IH]; cbn [tlookup map fst In]; [intros _ []|].
  destruct (Nat.eqb s s' && N.eqb tag tag') eqn:E; [discriminate|]. intros H [Heq|Hin]; [|exact (IH H Hin)].
  inversion Heq; subst. rewrite Nat.eqb_refl, N.eqb_refl in E. discriminate.
Qed.

(** the key of a memoised body is strictly above everything the body put in at its own cursor, so
    it is not among those *)
Lemma adds_memo tag a s st st1 st' r :
  tlookup (table st) s tag = None -> In tag tags -> a = tag_body tag ->
  adds a s st st1 -> table st' = ((s, tag), r) :: table st1 -> adds (Memo tag a) s st st'.
Proof.
  intros El Htag Hbody (na & Ea & Hnd & Hk) E'.
  exists (((s, tag), r) :: na). split; [rewrite E', Ea; reflexivity|].
  assert (Hfresh : ~ In (s, tag) (map fst na)).
  { intros Hin. destruct (Hk s tag Hin) as (_ & _ & _ & _ & F). specialize (F eq_refl).
    unfold lexle, kmeas, pmeas in F. rewrite <- Hbody in F. cbn [fst snd] in F. lia. }
  split; [cbn [map fst]; constructor; assumption|].
  intros s2 tag2 [Heq|Hin].
  - injection Heq as <- <-. repeat split; [apply tlookup_none, El|lia|auto|exact Htag|].
    intros _. unfold lexle, kmeas, pmeas. rewrite <- Hbody. cbn [PegTerm.lrank psize fst snd]. right. split; lia.
  - destruct (Hk s2 tag2 Hin) as (A & B & C & D & F). repeat split; try assumption.
    intros Heq. apply (lexle_mono _ _ _ _ _ (F Heq)); cbn [PegTerm.lrank psize]; lia.
Qed.

(** what memo_transparent and run_progress give for a sub-evaluation *)
Lemma sub_eval n p s acc st r st' : wf p -> tok st -> runm n p s acc st = (r, st') ->
  tok st' /\ (forall s1 m1, r = Ok s1 m1 -> s <= s1 /\ (consumes p = true -> s < s1) /\ (s <= length toks -> s1 <= length toks)).
Proof.
  intros Hwf Hst H. destruct (memo_transparent class_ok is_trivia K_IDENT_REF g toks tag_body g_wf n p s acc st r st' Hwf Hst H) as [T X].
  split; [exact T|]. intros s1 m1 ->. destruct (X ltac:(discriminate)) as [m Hm].
  destruct (run_progress class_ok is_trivia K_IDENT_REF g cons rank R Z Hg toks _ _ _ _ _ _ Hm) as [A B].
  repeat split; [exact A|intros Hc; apply B, Hc|intros Hl; exact (run_bounded _ _ _ _ _ _ Hm Hl)].
Qed.

Theorem runm_new : forall n p s acc st r st',
  wf p -> incl (ptags p) tags -> tok st -> runm n p s acc st = (r, st') -> adds p s st st'.
Proof.
  induction n as [|n IH]; intros p s acc st r st' Hwf Htg Hst H.
  { injection H as _ <-. apply adds_same. reflexivity. }
  destruct p; cbn [Peg.runm] in H; cbn [PegProofs.wf_pexp] in Hwf; cbn [ptags] in Htg.
  - injection H as _ <-. apply adds_same. reflexivity.
  - apply adds_same. destruct (kind_at s) as [k|]; [destruct (class_ok c k)|]; injection H as _ <-; reflexivity.
  - destruct Hwf as [Ha Hb]. apply incl_app_inv in Htg as [Hta Htb].
    destruct (runm n p1 s acc st) as [ra st1] eqn:Ea. pose proof (IH _ _ _ _ _ _ Ha Hta Hst Ea) as A1.
    destruct (sub_eval _ _ _ _ _ _ _ Ha Hst Ea) as [T1 P1].
    destruct ra as [s1 m1| |];
      [|injection H as _ <-; apply (adds_weaken _ p1); cbn [PegTerm.lrank psize]; [lia|exact A1]..].
    destruct (runm n p2 s1 (acc ++ m1) st1) as [rb st2] eqn:Eb. pose proof (IH _ _ _ _ _ _ Hb Htb T1 Eb) as A2.
    assert (st' = st2) by (destruct rb; injection H as _ <-; reflexivity). subst st'.
    destruct (P1 s1 m1 eq_refl) as (Q1 & Q2 & Q3).
    apply (adds_then _ p1 p2 s s1 st st1 st2 A1 A2 Q1 Q3); cbn [PegTerm.lrank psize]; [lia|].
    intros ->. destruct (consumes p1); [specialize (Q2 eq_refl)|]; lia.
  - destruct Hwf as [Ha Hb]. apply incl_app_inv in Htg as [Hta Htb].
    destruct (runm n p1 s acc st) as [ra st1] eqn:Ea. pose proof (IH _ _ _ _ _ _ Ha Hta Hst Ea) as A1.
    destruct (sub_eval _ _ _ _ _ _ _ Ha Hst Ea) as [T1 _].
    destruct ra as [s1 m1| |];
      [injection H as _ <-; apply (adds_weaken _ p1); cbn [PegTerm.lrank psize]; [lia|exact A1]|
      |injection H as _ <-; apply (adds_weaken _ p1); cbn [PegTerm.lrank psize]; [lia|exact A1]].
    pose proof (IH _ _ _ _ _ _ Hb Htb T1 H) as A2.
    apply (adds_then _ p1 p2 s s st st1 st' A1 A2 (le_n _) (fun x => x)); cbn [PegTerm.lrank psize]; lia.
  - destruct (runm n p s [] st) as [ra st1] eqn:Ea. pose proof (IH _ _ _ _ _ _ Hwf Htg Hst Ea) as A1.
    assert (st' = st1) by (destruct ra; injection H as _ <-; reflexivity). subst st'.
    apply (adds_weaken _ p); cbn [PegTerm.lrank psize]; [lia|exact A1].
  - destruct (runm n p s [] st) as [ra st1] eqn:Ea. pose proof (IH _ _ _ _ _ _ Hwf Htg Hst Ea) as A1.
    assert (st' = st1) by (destruct ra as [? [|? [|? ?]]| |]; injection H as _ <-; reflexivity). subst st'.
    apply (adds_weaken _ p); cbn [PegTerm.lrank psize]; [lia|exact A1].
  - pose proof (IH _ _ _ _ _ _ (g_wf nt) (g_tags nt) Hst H) as A1.
    destruct (prod_ok_spec g cons rank R Z Hg nt) as (_ & Hl & _).
    apply (adds_weaken _ (g nt)); cbn [PegTerm.lrank psize]; [lia|exact A1].
  - destruct Hwf as [Hbody Hwa]. assert (Hta : incl (ptags p) tags) by (intros x Hx; apply Htg; right; exact Hx).
    destruct (tlookup (table st) s tag) as [r0|] eqn:El; [injection H as _ <-; apply adds_same; reflexivity|].
    destruct (runm n p s [] st) as [r1 st1] eqn:Ea. pose proof (IH _ _ _ _ _ _ Hwa Hta Hst Ea) as A1.
    pose proof (Htg tag (or_introl eq_refl)) as Htag.
    destruct r1; injection H as _ <-;
      [eapply (adds_memo tag p s st st1 _ _ El Htag Hbody A1); reflexivity..|].
    apply (adds_weaken _ p); cbn [PegTerm.lrank psize]; [lia|exact A1].
  - destruct Hwf as [Ha Hb]. apply incl_app_inv in Htg as [Hta Htb].
    destruct (runm n p1 s acc st) as [ra st1] eqn:Ea. pose proof (IH _ _ _ _ _ _ Ha Hta Hst Ea) as A1.
    destruct (sub_eval _ _ _ _ _ _ _ Ha Hst Ea) as [T1 P1].
    destruct ra as [s1 m1| |];
      [|injection H as _ <-; apply (adds_weaken _ p1); cbn [PegTerm.lrank psize]; [lia|exact A1]..].
    destruct (runm n p2 s1 (acc ++ m1) st1) as [rb st2] eqn:Eb. pose proof (IH _ _ _ _ _ _ Hb Htb T1 Eb) as A2.
    assert (st' = st2) by (destruct rb; injection H as _ <-; reflexivity). subst st'.
    destruct (P1 s1 m1 eq_refl) as (Q1 & Q2 & Q3).
    apply (adds_then _ p1 p2 s s1 st st1 st2 A1 A2 Q1 Q3); cbn [PegTerm.lrank psize]; [lia|].
    intros ->. destruct (consumes p1); [specialize (Q2 eq_refl)|]; lia.
  - injection H as _ <-. apply adds_same. reflexivity.
Qed.

Lemma NoDup_bounded (l : list (nat * N)) L :
  NoDup l -> (forall s t, In (s, t) l -> s <= L /\ In t tags) -> length l <= S L * length tags.
Proof.
  intros Hnd Hb. rewrite <- (seq_length (S L) 0), <- prod_length.
  apply NoDup_incl_length; [exact Hnd|]. intros [s t] Hin. destruct (Hb s t Hin) as [A B].
  apply in_prod; [apply in_seq; lia|exact B].
Qed.

(* whether or not the run ended *)
Theorem memo_table_bound_any n p s acc r st' :
  wf p -> incl (ptags p) tags -> s <= length toks ->
  runm n p s acc (mk_mstate [] 0 0) = (r, st') ->
  NoDup (keys st') /\ length (table st') <= S (length toks) * length tags.
Proof.
  intros Hwf Htg Hs H.
  destruct (runm_new n p s acc _ r st' Hwf Htg (table_ok_empty _ _ _ _ _ _) H) as (new & Hnew & [Hnd Hk]).
  cbn [table] in Hnew. rewrite app_nil_r in Hnew.
  assert (Hkeys : keys st' = map fst new) by (unfold keys; rewrite Hnew; reflexivity).
  split; [rewrite Hkeys; exact Hnd|].
  rewrite <- (map_length fst (table st')). fold (keys st'). rewrite Hkeys.
  apply NoDup_bounded; [exact Hnd|]. intros s2 t2 Hin. destruct (Hk s2 t2 Hin) as (_ & _ & C & D & _). split; [apply C, Hs|exact D].
Qed.

Theorem memo_table_bound n p s acc r st' :
  wf p -> incl (ptags p) tags -> s <= length toks ->
  runm n p s acc (mk_mstate [] 0 0) = (r, st') -> r <> Fuel ->
  NoDup (keys st') /\ length (table st') <= S (length toks) * length tags.
Proof. intros Hwf Htg Hs H _. exact (memo_table_bound_any n p s acc r st' Hwf Htg Hs H). Qed.
End Bound.

(* the oal grammar has two tags: at most 2 (n + 1) entries, each (cursor, tag) once *)
From Oal Require Import Grammar GrammarProofs GrammarTerm.
Local Open Scope nat_scope.

Definition oal_tags : list N := [TAG_TERM; TAG_EXPRESSION].

Lemma oal_tags_checks :
  forallb (fun nt => forallb (fun t => existsb (N.eqb t) oal_tags) (ptags (oal_grammar nt))) (List.seq 0%nat NP) = true.
Proof. vm_compute. reflexivity. Qed.

Lemma oal_g_tags : forall nt, incl (ptags (oal_grammar nt)) oal_tags.
Proof.
  intros nt. destruct (Nat.lt_ge_cases nt NP) as [Hlt|Hge].
  - pose proof oal_tags_checks as H. rewrite forallb_forall in H.
    specialize (H nt ltac:(apply List.in_seq; lia)). rewrite forallb_forall in H.
    intros t Ht. specialize (H t Ht). apply existsb_exists in H as (x & Hx & E). apply N.eqb_eq in E. subst. exact Hx.
  - rewrite (oal_grammar_default nt Hge). intros t [].
Qed.

Theorem oal_memo_table_bound_any n toks r st :
  parse_memo n toks = (r, st) ->
  NoDup (map fst (table st)) /\ length (table st) <= 2 * S (length toks).
Proof.
  intros H. unfold parse_memo in H.
  apply memo_table_bound_any with (cons := ocons) (rank := orank) (R := OR) (Z := OZ) (tag_body := oal_tag_body) (tags := oal_tags) in H as [A B];
    [|exact oal_prod_ok|exact oal_wf|exact oal_g_tags|exact I|intros t []|apply skip_bounds; lia].
  split; [exact A|]. cbn [oal_tags length] in B. lia.
Qed.

Theorem oal_memo_table_bound n toks r st :
  parse_memo n toks = (r, st) -> r <> Fuel ->
  NoDup (map fst (table st)) /\ length (table st) <= 2 * S (length toks).
Proof. intros H _. exact (oal_memo_table_bound_any n toks r st H). Qed.

(** with the fuel that always suffices, for every token list *)
Corollary oal_memo_bodies_run_once toks :
  let n := length toks * (S OR * S OZ) + S (orank P_PROGRAM) * S OZ + 1 in
  NoDup (map fst (table (snd (parse_memo n toks)))) /\ length (table (snd (parse_memo n toks))) <= 2 * S (length toks).
Proof.
  cbn zeta. destruct (parse_memo _ toks) as [r st] eqn:E. cbn [snd]. exact (oal_memo_table_bound_any _ toks r st E).
Qed.
